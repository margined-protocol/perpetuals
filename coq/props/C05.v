(* C05: trader actions never leave the trader under-margined. *)
From MP.Model Require Import Prelude U128 SInt Feed Vamm VammOps Token World Engine Runtime.
From MP.Proofs Require Import Tactics HandlerFacts EngineGuards EngineArith CloseFacts MoreFacts BandFacts
 MarginTxFacts.
From MP.Model Require Import Scenario.

(* leverage below 1 or above 1/initial-margin-ratio is rejected *)
Theorem C05_leverage_bounds : forall w t v s m l lim f r,
  e_open_position w t v s m l lim f = Ok r ->
  0 <= e_init (ec (w_eng w)) -> 0 < e_dec (ec (w_eng w)) ->
  e_dec (ec (w_eng w)) <= l /\ l * e_init (ec (w_eng w)) <= e_dec (ec (w_eng w)) * e_dec (ec (w_eng w)).
Proof.
  intros w t v s m l lim f r H Hi Hd. unfold e_open_position in H. minv H. clear H. zb. arith_ok. subst.
  apply require_additional_margin_pos in Hx3; [|apply Z.div_pos; nia|exact Hi].
  split; [lia|]. etransitivity; [apply Z.mul_le_mono_nonneg_l, Hx3; lia|apply Z.mul_div_le; lia].
Qed.
Print Assumptions C05_leverage_bounds.

(* every successful increase / reduce / reverse reply ends with the margin-ratio guard evaluated on the
   state it stores: the ratio of the stored position, recomputed from the post-swap vAMM, is not below
   the maintenance ratio *)
Theorem C05_post_trade_ratio : forall w i o id w' subs tm,
  update_position_reply w i o id = Ok (w', subs) -> e_tmp (w_eng w) = Some tm ->
  exists mr, query_margin_ratio w' (ts_vamm tm) (ts_trader tm) = Ok mr /\
             sltb mr (spos (e_maint (ec (w_eng w')))) = false.
Proof.
  intros w i o id w' subs tm H Htmp. unfold update_position_reply, need_tmp in H. rewrite Htmp in H. cbn [bind] in H.
  arm H.
  match goal with Hq : query_margin_ratio _ _ _ = Ok ?mr, Hr : require_additional_margin ?mr _ = Ok _ |- _ =>
    exists mr; split; [exact Hq|exact (require_additional_margin_ok _ _ _ Hr)] end.
Qed.
Print Assumptions C05_post_trade_ratio.

(* WithdrawMargin: the wallet receives exactly `amount`, the stored margin falls by amount + funding
   owed and stays non-negative (a withdrawal that creates bad debt is rejected), the checkpoint moves,
   and free collateral after subtracting the amount is non-negative *)
Theorem C05_withdraw : forall w t v amount w' msgs,
  e_withdraw_margin w t v amount = Ok (w', msgs) ->
  let p := read_position (w_eng w) v t in
  pos_wf p -> cpf_wf (w_eng w) v -> 0 < e_dec (ec (w_eng w)) -> 0 <= amount ->
  exists p', find_position (w_eng w') v t = Some p' /\
    p_margin p' = p_margin p - amount - funding_owed w v p /\ 0 <= p_margin p' /\
    p_lupf p' = cumulative_premium_fraction (w_eng w) v /\
    p_size p' = p_size p /\ p_dir p' = p_dir p /\ p_notional p' = p_notional p /\
    transfers_to t msgs = amount /\
    amount <> 0 /\ e_pause (es (w_eng w)) = false /\
    exists fc fc', query_free_collateral w v t = Ok fc /\ schecked_sub fc (spos amount) = Ok fc' /\ s_is_negative fc' = false.
Proof. exact withdraw_margin_spec. Qed.
Print Assumptions C05_withdraw.

(* DepositMargin raises the stored margin by exactly the amount taken from the wallet and changes
   nothing else of the position *)
Theorem C05_deposit : forall w t v amount funds w' msgs,
  e_deposit_margin w t v amount funds = Ok (w', msgs) ->
  exists p, find_position (w_eng w) v t = Some p /\
    find_position (w_eng w') v t = Some (mkPos (p_dir p) (p_size p) (p_margin p + amount) (p_notional p) (p_lupf p) (p_block p)) /\
    amount <> 0 /\ e_pause (es (w_eng w)) = false /\
    (if t_native (w_tok w) then funds = amount /\ msgs = [] else msgs = [execute_transfer_from w t A_ENGINE amount]).
Proof. exact deposit_margin_spec. Qed.
Print Assumptions C05_deposit.

(* END TO END.  A successful OpenPosition transaction - the whole message tree (swap, reply, a reversal's
   second swap and reply, fee and margin transfers, insurance-fund draws), for every fault index - leaves
   the sender either without a position on that vAMM or with one whose margin ratio, recomputed on the
   final state of the transaction, is not below the maintenance ratio.  No side condition. *)
Theorem C05_open_position_ends_margined : forall f w t v s m l lim funds w',
  exec_op f w (OEngine t (EOpenPosition v s m l lim) funds) = Ok w' ->
  sval (p_size (read_position (w_eng w') v t)) = 0 \/
  exists mr, query_margin_ratio w' v t = Ok mr /\ sltb mr (spos (e_maint (ec (w_eng w')))) = false.
Proof.
  intros f w t v s m l lim funds w'. apply (open_position_tx_goal ratio_ok ratio_ok_core).
  - intros w0 i o id w1 subs tm Hre Htmp _. right. exact (C05_post_trade_ratio _ _ _ _ _ _ _ Hre Htmp).
  - intros w0 i o w1 subs tm _ _ Hsz. left. exact Hsz.
Qed.
Print Assumptions C05_open_position_ends_margined.

(* non-vacuity: in the concrete scenario an increasing, a reducing and a reversing OpenPosition all succeed *)
Definition c05_example : bool :=
  match scenario with
  | Ok w =>
      let ok o := match exec_op (-1) w o with Ok w' => negb (sval (p_size (read_position (w_eng w') 11 21)) =? 0) | Err _ => false end in
      ok (OEngine 21 (EOpenPosition 11 Buy 1000000 2000000 0) 0) &&
      ok (OEngine 21 (EOpenPosition 11 Sell 1000000 2000000 0) 0) &&
      ok (OEngine 21 (EOpenPosition 11 Sell 8000000 2000000 0) 0)
  | Err _ => false
  end.
Example C05_nonvacuous : c05_example = true.
Proof. vm_compute. reflexivity. Qed.

(* END TO END.  A successful WithdrawMargin transaction: the wallet receives exactly the requested amount
   (minus whatever the caller attached), the stored margin falls by amount + funding owed and stays >= 0,
   size / notional unchanged, checkpoint moved.  A successful DepositMargin transaction: the stored margin
   rises by exactly the amount, the wallet falls by exactly the amount (cw20: pulled; native: attached),
   nothing else of the position changes. *)
Theorem C05_withdraw_margin_tx : forall f w t v amount funds w',
  exec_op f w (OEngine t (EWithdrawMargin v amount) funds) = Ok w' ->
  let p := read_position (w_eng w) v t in
  pos_wf p -> cpf_wf (w_eng w) v -> 0 < e_dec (ec (w_eng w)) -> 0 <= amount ->
  t <> A_ENGINE -> t <> A_IFUND -> t <> if_engine (w_if w) ->
  bal (w_tok w') t = bal (w_tok w) t - funds + amount /\
  exists p', find_position (w_eng w') v t = Some p' /\
    p_margin p' = p_margin p - amount - funding_owed w v p /\ 0 <= p_margin p' /\
    p_size p' = p_size p /\ p_notional p' = p_notional p /\ p_lupf p' = cumulative_premium_fraction (w_eng w) v.
Proof. exact withdraw_margin_tx. Qed.
Print Assumptions C05_withdraw_margin_tx.
Theorem C05_deposit_margin_tx : forall f w t v amount funds w',
  exec_op f w (OEngine t (EDepositMargin v amount) funds) = Ok w' ->
  t <> A_ENGINE -> t <> A_IFUND -> t <> if_engine (w_if w) ->
  exists p, find_position (w_eng w) v t = Some p /\
    find_position (w_eng w') v t = Some (mkPos (p_dir p) (p_size p) (p_margin p + amount) (p_notional p) (p_lupf p) (p_block p)) /\
    amount <> 0 /\ bal (w_tok w') t = bal (w_tok w) t - amount.
Proof. intros; eapply deposit_margin_tx; eauto. Qed.
Print Assumptions C05_deposit_margin_tx.

(* non-vacuity: both succeed in the concrete scenario (cw20 and native) *)
Definition c05_margin_example : bool :=
  match scenario, scenario_native with
  | Ok w, Ok wn =>
      let ok w0 o := match exec_op (-1) w0 o with Ok _ => true | Err _ => false end in
      ok w (OEngine 21 (EWithdrawMargin 11 1000000) 0) && ok w (OEngine 21 (EDepositMargin 11 1000000) 0) &&
      ok wn (OEngine 21 (EWithdrawMargin 11 1000000) 0) && ok wn (OEngine 21 (EDepositMargin 11 1000000) 1000000) &&
      pos_wfb (read_position (w_eng w) 11 21) && wf0b (cumulative_premium_fraction (w_eng w) 11)
  | _, _ => false
  end.
Example C05_margin_nonvacuous : c05_margin_example = true.
Proof. vm_compute. reflexivity. Qed.

(* the leverage clause at transaction level: an OpenPosition transaction succeeds only with
   1 <= leverage <= 1 / initial margin ratio; outside those bounds the step fails and the world is unchanged *)
Theorem C05_open_position_tx_leverage : forall f w t v s m l lim funds w',
  exec_op f w (OEngine t (EOpenPosition v s m l lim) funds) = Ok w' ->
  0 <= e_init (ec (w_eng w)) -> 0 < e_dec (ec (w_eng w)) ->
  e_dec (ec (w_eng w)) <= l /\ l * e_init (ec (w_eng w)) <= e_dec (ec (w_eng w)) * e_dec (ec (w_eng w)).
Proof.
  intros f w t v s m l lim funds w' H Hi HD. apply exec_engine_tok in H. destruct H as (tk & w1 & subs & n & He & _).
  exact (C05_leverage_bounds _ _ _ _ _ _ _ _ _ He Hi HD).
Qed.
Print Assumptions C05_open_position_tx_leverage.

Theorem C05_open_position_tx_leverage_refused : forall f w t v s m l lim funds,
  0 <= e_init (ec (w_eng w)) -> 0 < e_dec (ec (w_eng w)) ->
  l < e_dec (ec (w_eng w)) \/ e_dec (ec (w_eng w)) * e_dec (ec (w_eng w)) < l * e_init (ec (w_eng w)) ->
  step_f f w (OEngine t (EOpenPosition v s m l lim) funds) = (w, false).
Proof.
  intros f w t v s m l lim funds. intros Hi HD Hl. unfold step_f.
  destruct (exec_op f w (OEngine t (EOpenPosition v s m l lim) funds)) as [w'|e] eqn:E; [|reflexivity].
  exfalso. destruct (C05_open_position_tx_leverage _ _ _ _ _ _ _ _ _ _ E Hi HD). lia.
Qed.
Print Assumptions C05_open_position_tx_leverage_refused.
