(* C03: collateral is conserved. *)
From MP.Model Require Import Prelude U128 SInt Feed Vamm VammOps Token World Engine Runtime.
From MP.Proofs Require Import Tactics RuntimeFacts HandlerFacts LedgerFacts PartiesFacts FlowFacts CloseTxFacts.
From MP.Model Require Import Scenario.

(* the two ledger primitives (cw20 Transfer / bank Send, cw20 TransferFrom) move, never mint or burn *)
Theorem C03_move_conserves : forall t from to amt t', tok_move t from to amt = Ok t' ->
  total_supply t' = total_supply t /\ t_native t' = t_native t.
Proof. exact tok_move_total. Qed.
Print Assumptions C03_move_conserves.

Theorem C03_move_from_conserves : forall t sp owner to amt t', tok_move_from t sp owner to amt = Ok t' ->
  total_supply t' = total_supply t /\ t_native t' = t_native t.
Proof. exact tok_move_from_total. Qed.
Print Assumptions C03_move_from_conserves.

(* a move touches only its source and destination *)
Theorem C03_move_frame : forall t from to amt t' a, tok_move t from to amt = Ok t' -> a <> from -> a <> to -> bal t' a = bal t a.
Proof. exact tok_move_frame. Qed.
Print Assumptions C03_move_frame.
Theorem C03_move_from_frame : forall t sp owner to amt t' a, tok_move_from t sp owner to amt = Ok t' -> a <> owner -> a <> to -> bal t' a = bal t a.
Proof. exact tok_move_from_frame. Qed.
Print Assumptions C03_move_from_frame.

(* no reply handler of any contract touches the ledger *)
Theorem C03_replies_do_not_touch_ledger : forall w c id r w' subs,
  contract_reply w c id r = Ok (w', subs) -> w_tok w' = w_tok w.
Proof. exact contract_reply_tok. Qed.
Print Assumptions C03_replies_do_not_touch_ledger.

(* any dispatch of any message tree, with or without an injected fault, conserves the total *)
Theorem C03_dispatch_conserves : forall fuel f w n sender subs w' n',
  dispatch fuel f w n sender subs = Ok (w', n') -> wtotal w' = wtotal w.
Proof. intros fuel f w n sender subs w' n'. intros H. eapply dispatched_total, dispatch_dispatched, H. Qed.
Print Assumptions C03_dispatch_conserves.

(* every transaction of every contract (all engine / vAMM / insurance fund / fee pool / feed
   messages, allowances and plain transfers), successful or failed: total collateral unchanged.
   The only exception is the set-up mint. *)
Theorem C03_step_conserves : forall f w o, is_mint o = false -> wtotal (fst (step_f f w o)) = wtotal w.
Proof. intros f w o Hm. apply (step_f_inv (fun x => wtotal x = wtotal w)); eauto using exec_op_total. Qed.
Print Assumptions C03_step_conserves.

(* over every history *)
Theorem C03_history_conserves : forall ops w,
  forallb (fun o => negb (is_mint o)) ops = true -> wtotal (run w ops) = wtotal w.
Proof.
  intros ops. intros w H. apply (run_inv (fun x => wtotal x = wtotal w) (fun o => is_mint o = false)); [| |reflexivity].
  - intros w0 o Hm <-. apply C03_step_conserves, Hm.
  - apply Forall_forall. intros o Ho. apply negb_true_iff. exact (proj1 (forallb_forall _ _) H o Ho).
Qed.
Print Assumptions C03_history_conserves.

(* END TO END, second clause.  Whatever the engine message (open, close, liquidate, pay funding, deposit,
   withdraw, configuration), whatever the fault index: a successful engine transaction started from a state
   with no in-flight records leaves the balance of every account other than its sender, the engine, the
   insurance fund (its address, its configured address, its beneficiary) and the fee pool exactly as it was -
   in particular the liquidated trader's, bystanders' and the liquidator's counterparties'. *)
Theorem C03_engine_tx_touches_only_its_parties : forall f w s m funds w' a,
  exec_op f w (OEngine s m funds) = Ok w' ->
  e_tmp (w_eng w) = None -> e_liq (w_eng w) = None ->
  a <> s -> a <> A_ENGINE -> a <> A_IFUND -> a <> if_engine (w_if w) ->
  a <> e_ifund (ec (w_eng w)) -> a <> e_feepool (ec (w_eng w)) ->
  bal (w_tok w') a = bal (w_tok w) a.
Proof.
  intros f w s m funds w' a. intros H Htmp Hliq Hs He Hi Hie Hif Hfp.
  destruct (engine_tx _ _ _ _ _ _ H) as (tk & w1 & subs & n & _ & _ & Hb & Ee & Et & _ & Hd).
  assert (Hbal : bal (w_tok w1) a = bal (w_tok w) a)
    by (rewrite Et, Hb; unfold ind; destruct (Z.eqb_spec a A_ENGINE), (Z.eqb_spec a s); try contradiction; lia).
  destruct (engine_execute_out a _ _ _ _ _ _ Ee) as [-> | [Ho Hq]]; auto.
  - inversion Hd; subst. exact Hbal.
  - assert (Hio : iout (is_liquidate m) a (bal (w_tok w) a) w1) by (split; assumption).
    exact (proj1 (dispatched_iout _ _ _ _ _ _ _ _ _ Hd (not_eq_sym He) (not_eq_sym Hi) Hio Hq)).
Qed.
Print Assumptions C03_engine_tx_touches_only_its_parties.

(* non-vacuity: in the concrete scenario the state has no in-flight records and a liquidation by account 31
   of trader 22 succeeds; trader 22 and trader 21 are such outsiders *)
Definition c03_example : bool :=
  match scenario with
  | Ok w0 =>
      let w := run w0 [OEngine 1 (EUpdateConfig None None None (Some 900000) (Some 900000) None None) 0] in
      match e_tmp (w_eng w), e_liq (w_eng w), exec_op (-1) w (OEngine 31 (ELiquidate 11 22 0) 0) with
      | None, None, Ok w' =>
          let outsider a := negb (a =? 31) && negb (a =? A_ENGINE) && negb (a =? A_IFUND) && negb (a =? if_engine (w_if w)) &&
                            negb (a =? e_ifund (ec (w_eng w))) && negb (a =? e_feepool (ec (w_eng w))) in
          outsider 22 && outsider 21 && negb (bal (w_tok w') 31 =? bal (w_tok w) 31)
      | _, _, _ => false
      end
  | Err _ => false
  end.
Example C03_nonvacuous : c03_example = true.
Proof. vm_compute. reflexivity. Qed.
