(* C14: pause, closed markets and emergency shutdown. *)
From MP.Model Require Import Prelude U128 SInt Feed Vamm VammOps Token World Engine Runtime.
From MP.Proofs Require Import Tactics RuntimeFacts HandlerFacts ResidueFacts EngineGuards EngineArith MoreFacts
 LiqFacts RegistryFacts LiveFacts.

Theorem C14_paused_open : forall w t v s m l lim f, e_pause (es (w_eng w)) = true -> e_open_position w t v s m l lim f = Err EGuard.
Proof. intros w t v s m l lim f H. unfold e_open_position. rewrite H. reflexivity. Qed.
Print Assumptions C14_paused_open.
Theorem C14_paused_close : forall w t v lim, e_pause (es (w_eng w)) = true -> e_close_position w t v lim = Err EGuard.
Proof. intros w t v lim H. unfold e_close_position. rewrite H. reflexivity. Qed.
Print Assumptions C14_paused_close.
Theorem C14_paused_deposit : forall w t v a f, e_pause (es (w_eng w)) = true -> e_deposit_margin w t v a f = Err EGuard.
Proof. intros w t v a f H. unfold e_deposit_margin. rewrite H. reflexivity. Qed.
Print Assumptions C14_paused_deposit.
Theorem C14_paused_withdraw : forall w t v a, e_pause (es (w_eng w)) = true -> exists e, e_withdraw_margin w t v a = Err e.
Proof.
  intros w t v a H. unfold e_withdraw_margin. destruct (require_vamm w v); cbn [bind]; [|eauto].
  rewrite H. cbn. eauto.
Qed.
Print Assumptions C14_paused_withdraw.

(* PayFunding does not read the pause flag *)
Theorem C14_pay_funding_ignores_pause : forall w v b,
  match e_pay_funding w v, e_pay_funding (set_pause_flag w b) v with
  | Ok (_, m1), Ok (_, m2) => m1 = m2
  | Err _, Err _ => True
  | _, _ => False
  end.
Proof.
  intros w v b. unfold e_pay_funding, require_vamm, query_is_vamm, get_vamm, set_pause_flag. cbn.
  destruct (e_ifund (ec (w_eng w)) =? A_IFUND); cbn; auto.
  destruct (zmem v (if_vamms (w_if w))); cbn; auto.
  destruct (zfind v (w_vamms w)); cbn; auto.
  destruct (v_open (vs v0)); cbn; auto.
Qed.
Print Assumptions C14_pay_funding_ignores_pause.

(* open / withdraw / funding / liquidation need a registered, open vAMM *)
Theorem C14_require_vamm : forall w v, require_vamm w v = Ok tt ->
  e_ifund (ec (w_eng w)) = A_IFUND /\ zmem v (if_vamms (w_if w)) = true /\
  exists vm, get_vamm w v = Ok vm /\ v_open (vs vm) = true.
Proof. intros w v H. unfold require_vamm in H. minv H. unfold query_is_vamm in Hx. minv Hx. inv_ok. zb. eauto. Qed.
Print Assumptions C14_require_vamm.
Theorem C14_open_requires_vamm : forall w t v s m l lim f r, e_open_position w t v s m l lim f = Ok r -> require_vamm w v = Ok tt.
Proof. intros w t v s m l lim f r H. unfold e_open_position in H. minv H; eauto using ok_tt. Qed.
Print Assumptions C14_open_requires_vamm.
Theorem C14_withdraw_requires_vamm : forall w t v a r, e_withdraw_margin w t v a = Ok r -> require_vamm w v = Ok tt.
Proof. intros w t v a r H. unfold e_withdraw_margin in H. destruct (require_vamm w v) as [[]|]; [reflexivity|discriminate]. Qed.
Print Assumptions C14_withdraw_requires_vamm.
Theorem C14_pay_funding_requires_vamm : forall w v r, e_pay_funding w v = Ok r -> require_vamm w v = Ok tt.
Proof. intros w v r H. unfold e_pay_funding in H. destruct (require_vamm w v) as [[]|]; [reflexivity|discriminate]. Qed.
Print Assumptions C14_pay_funding_requires_vamm.
Theorem C14_liquidate_requires_vamm : forall w s v t lim r, e_liquidate w s v t lim = Ok r ->
  require_vamm (set_eng w (eng_set_liq (w_eng w) (Some s))) v = Ok tt.
Proof. intros w s v t lim r H. unfold e_liquidate in H. minv H; eauto using ok_tt. Qed.
Print Assumptions C14_liquidate_requires_vamm.

(* a closed vAMM refuses every swap (hence every close and liquidation) and funding settlement *)
Theorem C14_closed_swap_input : forall v e s d q l c, v_open (vs v) = false -> swap_input v e s d q l c = Err EGuard.
Proof. intros v e s d q l c. intros H. unfold swap_input. rewrite H. reflexivity. Qed.
Print Assumptions C14_closed_swap_input.
Theorem C14_closed_swap_output : forall v e s d b l, v_open (vs v) = false -> swap_output v e s d b l = Err EGuard.
Proof. intros v e s d b l H. unfold swap_output. rewrite H. reflexivity. Qed.
Print Assumptions C14_closed_swap_output.
Theorem C14_closed_settle_funding : forall v e s o, v_open (vs v) = false -> settle_funding v e s o = Err EGuard.
Proof. intros v e s o. intros H. unfold settle_funding. rewrite H. reflexivity. Qed.
Print Assumptions C14_closed_settle_funding.

(* TRANSACTION LEVEL.  While the engine is paused, an OpenPosition / ClosePosition / DepositMargin /
   WithdrawMargin transaction - with any funds attached, for any fault index - fails and returns the very
   same world. *)
Theorem C14_paused_open_tx : forall f w t v s m l lim funds, e_pause (es (w_eng w)) = true ->
  step_f f w (OEngine t (EOpenPosition v s m l lim) funds) = (w, false).
Proof.
  intros f w t v s m l lim funds. intros H. apply engine_refusal_is_failed_tx. intros tk r. cbn [engine_execute]. rewrite C14_paused_open by exact H. discriminate.
Qed.
Print Assumptions C14_paused_open_tx.
Theorem C14_paused_close_tx : forall f w t v lim funds, e_pause (es (w_eng w)) = true ->
  step_f f w (OEngine t (EClosePosition v lim) funds) = (w, false).
Proof.
  intros f w t v lim funds. intros H. apply engine_refusal_is_failed_tx. intros tk r. cbn [engine_execute]. rewrite C14_paused_close by exact H. discriminate.
Qed.
Print Assumptions C14_paused_close_tx.
Theorem C14_paused_deposit_tx : forall f w t v a funds, e_pause (es (w_eng w)) = true ->
  step_f f w (OEngine t (EDepositMargin v a) funds) = (w, false).
Proof.
  intros f w t v a funds. intros H. apply engine_refusal_is_failed_tx. intros tk r. cbn [engine_execute]. rewrite C14_paused_deposit by exact H. discriminate.
Qed.
Print Assumptions C14_paused_deposit_tx.
Theorem C14_paused_withdraw_tx : forall f w t v a funds, e_pause (es (w_eng w)) = true ->
  step_f f w (OEngine t (EWithdrawMargin v a) funds) = (w, false).
Proof.
  intros f w t v a funds. intros H. apply engine_refusal_is_failed_tx. intros tk r. cbn [engine_execute].
  destruct (C14_paused_withdraw (set_tok w tk) t v a H) as [e ->]. discriminate.
Qed.
Print Assumptions C14_paused_withdraw_tx.

(* on a vAMM that is not registered with the insurance fund or not open, OpenPosition / WithdrawMargin /
   PayFunding transactions fail and return the very same world *)
Theorem C14_no_vamm_open_tx : forall f w t v s m l lim funds, require_vamm w v <> Ok tt ->
  step_f f w (OEngine t (EOpenPosition v s m l lim) funds) = (w, false).
Proof.
  intros f w t v s m l lim funds. intros H. apply engine_refusal_is_failed_tx. intros tk r Eo. exact (H (C14_open_requires_vamm _ _ _ _ _ _ _ _ _ Eo)).
Qed.
Print Assumptions C14_no_vamm_open_tx.
Theorem C14_no_vamm_withdraw_tx : forall f w t v a funds, require_vamm w v <> Ok tt ->
  step_f f w (OEngine t (EWithdrawMargin v a) funds) = (w, false).
Proof.
  intros f w t v a funds. intros H. apply engine_refusal_is_failed_tx. intros tk r Eo. exact (H (C14_withdraw_requires_vamm _ _ _ _ _ Eo)).
Qed.
Print Assumptions C14_no_vamm_withdraw_tx.
Theorem C14_no_vamm_pay_funding_tx : forall f w s v funds, require_vamm w v <> Ok tt ->
  step_f f w (OEngine s (EPayFunding v) funds) = (w, false).
Proof.
  intros f w s v funds. intros H. apply engine_refusal_is_failed_tx. intros tk r Eo. exact (H (C14_pay_funding_requires_vamm _ _ _ Eo)).
Qed.
Print Assumptions C14_no_vamm_pay_funding_tx.

(* Liquidate does not read the pause flag: with the flag set either way the execute arm accepts or refuses alike,
   emits the same message, and the resulting worlds differ in the flag only *)
Theorem C14_liquidate_ignores_pause : forall w s v t lim b,
  e_liquidate (set_pause_flag w b) s v t lim =
  match e_liquidate w s v t lim with Ok (w1, ms) => Ok (set_pause_flag w1 b, ms) | Err e => Err e end.
Proof.
  intros w s v t lim b. unfold e_liquidate. rewrite with_liq_pause. repeat (apply flagged_bind; intros ?).
  apply flagged_if; [|reflexivity]. apply flagged_if; [|reflexivity].
  rewrite partial_liquidation_pause. destruct (partial_liquidation _ v t lim) as [[w1 m]|]; reflexivity.
Qed.
Print Assumptions C14_liquidate_ignores_pause.

(* and positively, END TO END: with the engine paused a full liquidation transaction succeeds under the hypotheses
   of C07's liveness theorem (none of which mentions the pause flag) *)
Theorem C14_paused_liquidation_succeeds : forall f w s v t lim mr p vm vm' q b,
  e_pause (es (w_eng w)) = true ->
  f < 0 ->
  let wl := with_liquidator w s in
  let c := ec (w_eng w) in let st := es (w_eng w) in
  find_position (w_eng w) v t = Some p -> sval (p_size p) <> 0 ->
  liq_ratio wl v t = Ok mr -> sgtb mr (spos (e_maint c)) = false ->
  require_vamm wl v = Ok tt ->
  (e_liqfee c <? sval mr) && negb (e_plr c =? 0) = false ->
  get_vamm w v = Ok vm ->
  swap_output vm (w_env w) A_ENGINE (side_to_direction (direction_to_side (p_dir p))) (sval (p_size p)) lim = Ok (vm', (q, b)) ->
  let lat := cumulative_premium_fraction (w_eng w) v in
  let X := Z.abs ((toZ lat - toZ (p_lupf p)) * toZ (p_size p)) in
  let tb := bal (w_tok w) A_ENGINE in let fund := bal (w_tok w) A_IFUND in
  pos_wf p -> cpf_wf (w_eng w) v -> 0 < e_dec c -> 0 <= q -> 0 <= e_liqfee c ->
  0 <= e_bad_debt st -> 0 <= tb -> 0 <= bal (w_tok w) s ->
  sval lat < MAXU -> sval (p_lupf p) < MAXU -> sval (p_size p) < MAXU -> e_dec c < MAXU ->
  Z.abs (toZ lat - toZ (p_lupf p)) < MAXU ->
  X + p_notional p + q + p_margin p + q * e_liqfee c + e_bad_debt st + tb + fund + bal (w_tok w) s < MAXU ->
  e_ifund c = A_IFUND -> if_engine (w_if w) = A_ENGINE -> s <> A_ENGINE -> s <> A_IFUND ->
  X + p_notional p + q + p_margin p + q * e_liqfee c <= fund ->
  liq_equity w v p (p_notional p) q <= tb ->
  exists w', exec_op f w (OEngine s (ELiquidate v t lim) 0) = Ok w'.
Proof. intros f w s v t lim mr p vm vm' q b. intros _. exact (liquidate_full_tx_live f w s v t lim mr p vm vm' q b). Qed.
Print Assumptions C14_paused_liquidation_succeeds.

(* the registry: no duplicates and at most three vAMMs in every state reachable by any history of operations from a
   fresh deployment; the membership query is the registry *)
Theorem C14_registry_step : forall f w o w', exec_op f w o = Ok w' -> reg_ok w -> reg_ok w'.
Proof. exact exec_op_reg. Qed.
Print Assumptions C14_registry_step.

Theorem C14_registry_reachable : forall ops w, reg_ok w -> reg_ok (run w ops).
Proof.
  intros ops w. apply (run_inv reg_ok (fun _ => True)); [|apply Forall_forall; exact (fun _ _ => I)].
  intros w0 o _ Hr. unfold step. apply step_f_inv; [intros w' E; exact (exec_op_reg _ _ _ _ E Hr)|exact Hr].
Qed.
Print Assumptions C14_registry_reachable.

Theorem C14_registry_initial : forall e d w, init_world e d = Ok w -> reg_ok w.
Proof.
  intros e d w. unfold init_world. intros H. minv H. minv_all. inv_ok. unfold reg_ok. cbn [w_if if_vamms length]. split; [constructor|lia].
Qed.
Print Assumptions C14_registry_initial.

Theorem C14_membership_query_is_registry : forall w v b,
  query_is_vamm w A_IFUND v = Ok b -> (b = true <-> In v (if_vamms (w_if w))).
Proof. intros w v b. unfold query_is_vamm. intros H. minv H. inv_ok. apply zmem_In. Qed.
Print Assumptions C14_membership_query_is_registry.

(* END TO END: a successful ShutdownVamms transaction leaves every registered vAMM closed, whatever state each was
   in before; only the fund's owner (or the fund) can send it *)
Theorem C14_shutdown_tx_closes_all : forall f w s w',
  exec_op f w (OIfund s IShutdown) = Ok w' -> reg_ok w ->
  forall v, In v (if_vamms (w_if w)) -> exists vm, get_vamm w' v = Ok vm /\ v_open (vs vm) = false.
Proof.
  intros f w s w'. intros H [_ Hlen] v Hin.
  apply exec_ifund_inv in H. destruct H as (w1 & subs & n & Hd0 & Hx).
  unfold if_shutdown in Hx. arm Hx. rewrite (firstn_all2 _ Hlen) in *.
  match goal with Hv : vamms_open _ _ = Ok _ |- _ => pose proof (vamms_open_spec _ _ _ Hv v Hin) as Hcase end.
  destruct (dispatched_close_all _ _ _ _ _ _ _ Hd0) as [H1 H2].
  destruct Hcase as [Hi|Hc]; [exact (H1 v Hi)|exact (H2 v Hc)].
Qed.
Print Assumptions C14_shutdown_tx_closes_all.

Theorem C14_shutdown_tx_only_owner : forall f w s w',
  exec_op f w (OIfund s IShutdown) = Ok w' -> is_admin (if_owner (w_if w)) s = true \/ s = A_IFUND.
Proof.
  intros f w s w'. intros H. apply exec_ifund_inv in H. destruct H as (w1 & subs & n & _ & Es).
  unfold if_shutdown in Es. minv Es. zb.
  match goal with Hb : (_ || _) = true |- _ => apply orb_true_iff in Hb; destruct Hb as [Hb|Hb]; [left; exact Hb|right; zb; assumption] end.
Qed.
Print Assumptions C14_shutdown_tx_only_owner.

(* TRANSACTION LEVEL, closed vAMM: a ClosePosition or a Liquidate on a closed vAMM fails - with any funds attached,
   for any fault index - and returns the very same world *)
Theorem C14_closed_vamm_close_tx : forall f w t v lim funds vm,
  get_vamm w v = Ok vm -> v_open (vs vm) = false ->
  step_f f w (OEngine t (EClosePosition v lim) funds) = (w, false).
Proof.
  intros f w t v lim funds vm. intros Hv Hc. unfold step_f.
  destruct (exec_op f w (OEngine t (EClosePosition v lim) funds)) as [w'|e] eqn:E; [|reflexivity]. exfalso.
  apply exec_engine_tok in E. destruct E as (tk & w1 & subs & n & Ec & Hd).
  destruct (engine_execute_eng _ _ _ _ _ _ Ec) as (e' & -> & _). cbn [engine_execute] in Ec.
  (* the message is a swap on v, which a closed vAMM refuses *)
  destruct (close_position_shape _ _ _ _ _ _ Ec) as (vm0 & over & tm & _ & _ & _ & _ & _ & _ & Hsub). cbv zeta in Hsub.
  assert (Hm : exists d b l id, subs = [mkSub (MSwapOutput v d b l) id RAlways])
    by (destruct (over && _); destruct Hsub as [_ ->]; unfold swap_output_msg; do 4 eexists; reflexivity).
  destruct Hm as (d & b & l & id & ->).
  apply dispatched_single in Hd; [|reflexivity|reflexivity]. destruct Hd as (wa & ev & wb & sb & Ex & _).
  apply exec_swap_output in Ex. destruct Ex as (vmx & vm' & qa & ba & Hz & Hsw & _ & _).
  unfold get_vamm in Hv. cbn [w_vamms set_eng set_tok] in Hz. rewrite Hz in Hv. injection Hv as ->.
  rewrite (C14_closed_swap_output _ _ _ _ _ _ Hc) in Hsw. discriminate.
Qed.
Print Assumptions C14_closed_vamm_close_tx.

Theorem C14_closed_vamm_liquidate_tx : forall f w s v t lim funds vm,
  get_vamm w v = Ok vm -> v_open (vs vm) = false ->
  step_f f w (OEngine s (ELiquidate v t lim) funds) = (w, false).
Proof.
  intros f w s v t lim funds vm. intros Hv Hc. apply engine_refusal_is_failed_tx. intros tk r Ec. cbn [engine_execute] in Ec.
  apply C14_liquidate_requires_vamm, C14_require_vamm in Ec. destruct Ec as (_ & _ & vm0 & Hg & Ho).
  unfold get_vamm in Hg, Hv. cbn [w_vamms set_eng set_tok] in Hg. rewrite Hv in Hg. congruence.
Qed.
Print Assumptions C14_closed_vamm_liquidate_tx.
