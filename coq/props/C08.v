(* C08: engine transactions are all-or-nothing. *)
From MP.Model Require Import Prelude U128 SInt Feed Vamm VammOps Token World Engine Runtime.
From MP.Proofs Require Import Tactics RuntimeFacts ResidueFacts PendingFacts.

(* a transaction that fails returns exactly the world it started from: storage of every contract
   and every balance (the world record is the whole deployment state) *)
Theorem C08_failed_tx_changes_nothing : forall f w o, snd (step_f f w o) = false -> fst (step_f f w o) = w.
Proof. intros f w o. unfold step_f. destruct (exec_op f w o); cbn; [discriminate|reflexivity]. Qed.
Print Assumptions C08_failed_tx_changes_nothing.

(* errors are never swallowed: if a dispatch succeeds, no sub-message it dispatched (at any depth,
   numbered n .. n'-1 in dispatch order) was the failing one.  Equivalently a failure of ANY
   sub-message of the tree - the vAMM swap, a transfer in or out, a fee transfer, the
   insurance-fund withdrawal or its inner transfer - makes the whole transaction fail. *)
Theorem C08_error_propagates : forall fuel f w n sender subs w' n',
  dispatch fuel f w n sender subs = Ok (w', n') -> f < n \/ n' <= f.
Proof. intros fuel. intros f w n sender subs w' n' H. apply dispatch_dispatched, dispatched_counter in H. tauto. Qed.
Print Assumptions C08_error_propagates.

(* every reply handler of every contract answers an error with an error *)
Theorem C08_reply_on_error_is_error : forall w c id e, exists e', contract_reply w c id (Err e) = Err e'.
Proof. exact contract_reply_err. Qed.
Print Assumptions C08_reply_on_error_is_error.

Theorem C08_fail_iff_error : forall f w o, snd (step_f f w o) = false <-> exists e, exec_op f w o = Err e.
Proof.
  intros f w o. unfold step_f. destruct (exec_op f w o); cbn; split; try discriminate; eauto.
  intros [e H]; discriminate.
Qed.
Print Assumptions C08_fail_iff_error.


(* every transaction of any contract, successful or failed, faulted or not, leaves the engine with
   no in-flight swap, sent-funds or liquidator record *)
Theorem C08_no_residue_step : forall f w o, clean (w_eng w) -> clean (w_eng (fst (step_f f w o))).
Proof. exact step_clean. Qed.
Print Assumptions C08_no_residue_step.

(* a fresh deployment is clean, hence so is every reachable state *)
Theorem C08_initial_clean : forall e d w, init_world e d = Ok w -> clean (w_eng w).
Proof. intros e d w. unfold init_world, engine_instantiate. intros H. minv H; minv_all; inv_ok; subst; repeat split. Qed.
Print Assumptions C08_initial_clean.

Theorem C08_no_residue_reachable : forall ops w, clean (w_eng w) -> clean (w_eng (run w ops)).
Proof. exact run_clean. Qed.
Print Assumptions C08_no_residue_reachable.
