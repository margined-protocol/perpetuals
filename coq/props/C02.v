(* C02: engine positions mirror the vAMM's net position. *)
From MP.Model Require Import Prelude U128 SInt Feed Vamm VammOps Token World Engine Runtime.
From MP.Proofs Require Import Tactics SIntFacts RuntimeFacts MirrorFacts ConfigFacts MirrorReach.

(* mirror v w : the per-vAMM position list has one entry per trader, every stored position's sign
   agrees with its direction, and the sum of the signed sizes equals the vAMM's total_position_size.
   mirror_all : for every vAMM. *)

(* one transaction of any kind (every engine message incl. opens, increases, reductions, reversals,
   closes, partial closes, full and partial liquidations, funding; every message of the other
   contracts; block advancement), successful or failed, with or without an injected fault *)
Theorem C02_step : forall f w o,
  op_ext o -> mirror_all w -> plr_ok w -> good_vamms w -> mirror_all (fst (step_f f w o)).
Proof.
  intros f w o He Hm Hp Hg. apply (step_f_inv mirror_all); [|exact Hm].
  intros w' E. exact (exec_op_mirror _ _ _ _ E He Hm Hp Hg).
Qed.
Print Assumptions C02_step.

(* the side conditions (configuration bounds; every vAMM wired to this engine) are invariant too *)
Theorem C02_invariant_step : forall f w o, op_ok o -> c02_inv w -> c02_inv (fst (step_f f w o)).
Proof.
  intros f w o Hok Hi. apply (step_f_inv c02_inv); [|exact Hi]. intros w' E. destruct Hi as [Hm [Hc Hg]]. split.
  - apply (exec_op_mirror _ _ _ _ E (proj1 Hok) Hm); [|exact Hg]. unfold ecfg_ok in Hc. unfold plr_ok. intuition lia.
  - exact (exec_op_cfg _ _ _ _ E Hok (conj Hc Hg)).
Qed.
Print Assumptions C02_invariant_step.

(* hence in every state reachable by any history of operations *)
Theorem C02_reachable : forall ops w, Forall op_ok ops -> c02_inv w -> c02_inv (run w ops).
Proof.
  intros ops w. apply run_inv. intros w0 o. apply C02_invariant_step.
Qed.
Print Assumptions C02_reachable.

(* a fresh deployment satisfies it *)
Theorem C02_initial : forall w,
  e_pos (w_eng w) = [] -> (forall v vm, zfind v (w_vamms w) = Some vm -> v_total (vs vm) = szero) -> mirror_all w.
Proof.
  intros w He Hz v. unfold mirror, positions_of. rewrite He. cbn. split; [constructor|split; [constructor|]].
  intros vm Hf. rewrite (Hz v vm Hf). unfold wf0. cbn. split; lia.
Qed.
Print Assumptions C02_initial.

(* the heart of it: a replying swap in a state consistent with the in-flight record, followed by
   its reply, re-establishes the invariant (and for a reversal hands over to the increase leg) *)
Theorem C02_swap_and_reply : forall v0 w m id w1 ev w2 subs,
  pend v0 w m id ->
  exec_simple w A_ENGINE m = Ok (w1, ev) ->
  contract_reply w1 A_ENGINE id (Ok ev) = Ok (w2, subs) ->
  readym v0 w2 subs.
Proof. exact pair_mirror. Qed.
Print Assumptions C02_swap_and_reply.

(* non-vacuity: a concrete deployment and history (two traders, open long, open short, reduce,
   reverse) stays inside the invariant's hypotheses and ends with non-trivial positions *)
Definition c02_example : bool :=
  let e := mkEnv 1000 10 in
  match init_world e (mkDeploy false 6 false 50000 50000 50000 1) with
  | Ok w0 =>
      match add_vamm_instance w0 11 1 (mkVinit 6 5 (Some 2) (Some 3) 1000000000 100000000 3600 0 0 0) with
      | Ok w1 =>
          let ops := [OIfund 1 (IAddVamm 11); OVamm 1 11 (WSetOpen true); OFeed 1 (PAppend 10000000 1000);
                      OToken 1 (TMint 21 1000000000000); OToken 21 (TIncreaseAllowance 1000000000000);
                      OToken 1 (TMint 22 1000000000000); OToken 22 (TIncreaseAllowance 1000000000000);
                      OEngine 21 (EOpenPosition 11 Buy 60000000 2000000 0) 0;
                      OEngine 22 (EOpenPosition 11 Sell 20000000 3000000 0) 0;
                      OEngine 21 (EOpenPosition 11 Sell 10000000 2000000 0) 0;
                      OEngine 22 (EOpenPosition 11 Buy 90000000 2000000 0) 0] in
          let w := run w1 ops in
          match zfind 11 (w_vamms w) with
          | Some vm =>
              (Z.of_nat (length (positions_of (w_eng w) 11)) =? 2) &&
              (sum_sizes (positions_of (w_eng w) 11) =? toZ (v_total (vs vm))) &&
              negb (toZ (v_total (vs vm)) =? 0)
          | None => false
          end
      | Err _ => false
      end
  | Err _ => false
  end.
Example C02_nonvacuous : c02_example = true.
Proof. vm_compute. reflexivity. Qed.
