(* C20: risk caps and configuration bounds under any update sequence. *)
From MP.Model Require Import Prelude U128 SInt Feed Vamm VammOps Token World Engine Runtime.
From MP.Proofs Require Import Tactics MapFacts SIntFacts VammFacts RuntimeFacts HandlerFacts MirrorFacts ConfigFacts
 MoreFacts LimitTxFacts CapsTxFacts ConfigReachFacts.

(* instantiate establishes the engine bounds: every ratio in [0, 1], maintenance <= initial *)
Theorem C20_engine_instantiate : forall s p i fpool d init maint liqfee e,
  0 <= init -> 0 <= maint -> 0 <= liqfee ->
  engine_instantiate s p i fpool d init maint liqfee = Ok e -> ecfg_ok (ec e).
Proof.
  intros s p i fpool d init maint liqfee e H1 H2 H3 H. unfold engine_instantiate in H. minv H. inv_ok. validated.
  unfold ecfg_ok. cbn. lia.
Qed.
Print Assumptions C20_engine_instantiate.

(* every accepted UpdateConfig (any combination of fields) preserves them; decimals immutable *)
Theorem C20_engine_update : forall w s o i f a b c d w' subs,
  opt_nonneg a -> opt_nonneg b -> opt_nonneg c -> opt_nonneg d ->
  e_update_config w s o i f a b c d = Ok (w', subs) ->
  ecfg_ok (ec (w_eng w)) ->
  ecfg_ok (ec (w_eng w')) /\ e_dec (ec (w_eng w')) = e_dec (ec (w_eng w)) /\ s = e_owner (ec (w_eng w)) /\
  w_vamms w' = w_vamms w /\ w_if w' = w_if w.
Proof. exact e_update_config_cfg. Qed.
Print Assumptions C20_engine_update.

Theorem C20_vamm_instantiate : forall e s m v,
  0 <= i_toll m -> 0 <= i_spread m -> 0 <= i_fluct m ->
  vamm_instantiate e s m = Ok v -> vcfg_ok (vc v).
Proof.
  intros e s m v H1 H2 H3 H. unfold vamm_instantiate in H. minv H. inv_ok. validated.
  unfold vcfg_ok, ONE_MINUTE, ONE_WEEK, ONE_HOUR. cbn. lia.
Qed.
Print Assumptions C20_vamm_instantiate.

(* toll, spread, fluctuation limit in [0, 1]; TWAP interval in [one minute, one week] *)
Theorem C20_vamm_update : forall v s u v',
  opt_nonneg (u_toll u) -> opt_nonneg (u_spread u) -> opt_nonneg (u_fluct u) ->
  vamm_update_config v s u = Ok v' -> vcfg_ok (vc v) ->
  vcfg_ok (vc v') /\ v_dec (vc v') = v_dec (vc v) /\ is_admin (v_owner v) s = true /\ vs v' = vs v.
Proof. exact vamm_update_config_cfg. Qed.
Print Assumptions C20_vamm_update.

(* a vAMM enters the registry only with the engine's decimals, no duplicates, at most three *)
Theorem C20_registered_decimals : forall w s v w' subs, if_add_vamm w s v = Ok (w', subs) ->
  exists vm, get_vamm w v = Ok vm /\ v_dec (vc vm) = e_dec (ec (w_eng w)) /\
  if_vamms (w_if w') = if_vamms (w_if w) ++ [v] /\ is_admin (if_owner (w_if w)) s = true /\
  zmem v (if_vamms (w_if w)) = false /\ (length (if_vamms (w_if w)) < 3)%nat.
Proof. exact if_add_vamm_decimals. Qed.
Print Assumptions C20_registered_decimals.

(* open-interest cap: an accepted update with a non-negative amount by a non-whitelisted trader
   leaves the recorded open interest at or below a non-zero cap *)
Theorem C20_open_interest_cap : forall w st v amount t st',
  wf0 amount -> 0 <= e_oi st ->
  update_open_interest_notional w st v amount t = Ok st' ->
  exists vm, get_vamm w v = Ok vm /\
  (0 < v_oi_cap (vc vm) -> s_is_positive amount = true -> is_whitelisted w t = false ->
   e_oi st' <= v_oi_cap (vc vm)) /\ 0 <= e_oi st'.
Proof. exact update_oi_cap. Qed.
Print Assumptions C20_open_interest_cap.

(* base-asset holding cap: checked on the new absolute size after every open/increase/reduce *)
Theorem C20_holding_cap : forall w v size t u,
  check_base_asset_holding_cap w v size t = Ok u ->
  exists vm, get_vamm w v = Ok vm /\
  (v_hold_cap (vc vm) <> 0 -> is_whitelisted w t = false -> size <= v_hold_cap (vc vm)).
Proof. exact holding_cap. Qed.
Print Assumptions C20_holding_cap.

(* OVER HISTORIES.  c20_inv w: every engine ratio (initial, maintenance, partial-liquidation, liquidation fee) is in
   [0,1] and maintenance <= initial; every vAMM's toll, spread and fluctuation limit are in [0,1] and its TWAP interval
   is between one minute and one week; every vAMM in the insurance fund's registry has the engine's decimals.
   Every operation (of any contract, by any sender, with unsigned configuration values) preserves it - accepted or
   not - hence it holds in every state reachable from a state that satisfies it, e.g. a fresh deployment
   (C20_engine_instantiate, C20_vamm_instantiate, empty registry). *)
Theorem C20_config_step : forall f w o, op_unsigned o -> c20_inv w -> c20_inv (fst (step_f f w o)).
Proof. intros f w o Hok Hc. apply (step_f_inv c20_inv); [|exact Hc]. intros w' E. exact (exec_op_c20 _ _ _ _ E Hok Hc). Qed.
Print Assumptions C20_config_step.

Theorem C20_config_reachable : forall ops w, Forall op_unsigned ops -> c20_inv w -> c20_inv (run w ops).
Proof.
  intros ops w. apply run_inv. intros w0 o. apply C20_config_step.
Qed.
Print Assumptions C20_config_reachable.

Theorem C20_config_initial : forall w,
  ecfg_ok (ec (w_eng w)) -> (forall v vm, zfind v (w_vamms w) = Some vm -> vcfg_ok (vc vm)) -> if_vamms (w_if w) = [] -> c20_inv w.
Proof.
  intros w H1 H2 H3. split; [exact H1|]. split; [exact H2|]. intros v Hin. rewrite H3 in Hin. destruct Hin.
Qed.
Print Assumptions C20_config_initial.

(* END TO END, caps, on the opening / increasing route (no position yet, or an order on the position's own side):
   after a successful OpenPosition by a trader who is not whitelisted, the engine's open interest is at or below a
   non-zero open-interest cap, and the trader's size at or below a non-zero holding cap.  (The re-opening leg of a
   reversal goes through the same reply arm; its transaction-level statement is not proved.) *)
Theorem C20_open_increase_tx_caps : forall f w t v s m l lim funds w' vm,
  exec_op f w (OEngine t (EOpenPosition v s m l lim) funds) = Ok w' ->
  get_vamm w v = Ok vm ->
  is_increase_of (get_position (w_eng w) (w_env w) v t s) s = true ->
  is_whitelisted w t = false -> 0 <= e_oi (es (w_eng w)) -> 0 <= m -> 0 <= l -> 0 < e_dec (ec (w_eng w)) ->
  (0 < v_oi_cap (vc vm) -> e_oi (es (w_eng w')) <= v_oi_cap (vc vm)) /\
  (v_hold_cap (vc vm) <> 0 -> exists p', find_position (w_eng w') v t = Some p' /\ sval (p_size p') <= v_hold_cap (vc vm)).
Proof.
  intros f w t v s m l lim funds w' vm H Hvm Hinc Hwl Hoi Hm Hl HD.
  apply exec_engine_tok in H. destruct H as (tk & w1 & subs & n & Eo & Hd). cbn [engine_execute] in Eo.
  destruct (open_position_shape _ _ _ _ _ _ _ _ _ _ Eo) as (pn0 & upnl0 & _ & -> & ->).
  cbn [w_eng w_env set_tok] in Hd. fold (is_increase_of (get_position (w_eng w) (w_env w) v t s) s) in Hd. rewrite Hinc in Hd.
  apply dispatched_swap_input in Hd. destruct Hd as (vm0 & vm' & ba & wb & sb & Hz & Hsw & Er & Hd).
  assert (vm0 = vm) by (unfold get_vamm in Hvm; cbn [w_vamms set_eng set_tok] in Hz; rewrite Hz in Hvm; congruence). subst vm0.
  rewrite reply_increase in Er.
  pose proof (swap_input_vc _ _ _ _ _ _ _ _ Hsw) as Hvc. cbn [fst] in Hvc.
  destruct (increase_reply_caps _ _ _ _ _ _ vm' Er eq_refl) as [Hc1 Hc2].
  - unfold get_vamm. cbn [ts_vamm w_vamms set_vamm]. rewrite zfind_zset_same. reflexivity.
  - exact Hwl.
  - apply Z.div_pos; [nia|exact HD].
  - exact Hoi.
  - pose proof (update_position_reply_leafy _ _ _ _ _ _ Er) as Hlf.
    destruct (dispatched_leafy_core _ _ _ _ _ _ _ Hd Hlf) as (Ee & _).
    rewrite Ee. rewrite Hvc in Hc1, Hc2. split; assumption.
Qed.
Print Assumptions C20_open_increase_tx_caps.
