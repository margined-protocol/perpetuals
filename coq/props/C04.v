(* C04: closing pays exactly the position's equity; bad debt cannot be cashed out. *)
From MP.Model Require Import Prelude U128 SInt Feed Vamm VammOps Token World Engine Runtime.
From MP.Proofs Require Import Tactics SIntFacts VammFacts HandlerFacts MirrorFacts EngineArith CloseFacts CloseTxFacts
 FundFloorFacts.
From MP.Model Require Import Scenario.

(* the margin arithmetic in mathematical integers: funding owed = (cumulative fraction - checkpoint)
   x size / D truncated; remaining margin = delta - funding + margin, negative part = bad debt *)
Theorem C04_remaining_margin : forall w v p delta fp margin bad latest,
  pos_wf p -> cpf_wf (w_eng w) v -> wf0 delta -> 0 < e_dec (ec (w_eng w)) ->
  calc_remain_margin w v p delta = Ok (fp, margin, bad, latest) ->
  latest = cumulative_premium_fraction (w_eng w) v /\
  toZ fp = funding_owed w v p /\
  let r := toZ delta - funding_owed w v p + p_margin p in
  (r < 0 -> margin = 0 /\ bad = - r) /\ (0 <= r -> margin = r /\ bad = 0) /\ 0 <= margin /\ 0 <= bad.
Proof. exact calc_remain_margin_spec. Qed.
Print Assumptions C04_remaining_margin.

(* the reply that completes a whole close: it succeeds only when the equity
   margin + realised PnL - funding owed is non-negative (a close that would leave bad debt is
   rejected); it then pays the trader exactly that amount (sum of all vault transfers to the
   trader in the emitted messages), removes the position and clears the in-flight record *)
Theorem C04_close_pays_equity : forall w i o w' msgs swap,
  e_tmp (w_eng w) = Some swap ->
  let v := ts_vamm swap in let t := ts_trader swap in
  let p := get_position (w_eng w) (w_env w) v t (ts_side swap) in
  pos_wf p -> cpf_wf (w_eng w) v -> 0 < e_dec (ec (w_eng w)) ->
  0 <= o -> 0 <= ts_open_notional swap -> ts_upnl swap = szero ->
  t <> e_ifund (ec (w_eng w)) -> t <> e_feepool (ec (w_eng w)) ->
  close_position_reply w i o = Ok (w', msgs) ->
  let equity := p_margin p + close_rpnl p o (ts_open_notional swap) - funding_owed w v p in
  0 <= equity /\ transfers_to t msgs = equity /\
  find_position (w_eng w') v t = None /\ e_tmp (w_eng w') = None /\ w_tok w' = w_tok w /\ w_vamms w' = w_vamms w.
Proof. exact close_position_reply_spec. Qed.
Print Assumptions C04_close_pays_equity.

(* the insurance fund is drawn only through `withdraw`, and exactly the drawn shortfall is added to
   the engine's prepaid bad debt in the same step *)
Theorem C04_fund_draw_is_recorded : forall w st receiver amount pre st' msgs,
  withdraw w st receiver amount pre = Ok (st', msgs) ->
  exists shortfall,
    (msgs = [execute_transfer receiver amount] /\ shortfall = 0 /\ st' = st \/
     msgs = [execute_insurance_fund_withdrawal w shortfall; execute_transfer receiver amount] /\
     0 < shortfall /\ shortfall = amount - (engine_balance w + pre) /\
     e_bad_debt st' = e_bad_debt st + shortfall /\ e_oi st' = e_oi st /\ e_pause st' = e_pause st).
Proof. exact withdraw_spec. Qed.
Print Assumptions C04_fund_draw_is_recorded.

(* END TO END.  A ClosePosition transaction that closes the whole position (nothing is left stored for the
   sender) - swap, reply, insurance-fund draw, payout and fee transfers, for every fault index - changes the
   closer's wallet by exactly: - funds attached + equity - fees pulled (cw20; a native deployment pays the
   fees out of the vault), where equity = stored margin + realized PnL at the executed price - funding owed,
   and equity >= 0: a close that would have to pay out of bad debt does not succeed. *)
Theorem C04_close_position_tx_pays_equity : forall f w t v lim funds w',
  exec_op f w (OEngine t (EClosePosition v lim) funds) = Ok w' ->
  let p := read_position (w_eng w) v t in
  pos_wf p -> cpf_wf (w_eng w) v -> 0 < e_dec (ec (w_eng w)) ->
  t <> A_ENGINE -> t <> A_IFUND -> t <> if_engine (w_if w) ->
  t <> e_ifund (ec (w_eng w)) -> t <> e_feepool (ec (w_eng w)) ->
  find_position (w_eng w') v t = None ->
  exists vm vm' o, get_vamm w v = Ok vm /\
    swap_output vm (w_env w) A_ENGINE (p_dir p) (sval (p_size p)) lim = Ok (vm', (o, sval (p_size p))) /\
    let equity := p_margin p + close_rpnl p o (p_notional p) - funding_owed w v p in
    0 <= equity /\
    bal (w_tok w') t = bal (w_tok w) t - funds + equity
      - (if t_native (w_tok w) then 0 else fee_of vm (p_notional p) (v_spread (vc vm)) + fee_of vm (p_notional p) (v_toll (vc vm))).
Proof. exact close_position_tx_pays. Qed.
Print Assumptions C04_close_position_tx_pays_equity.

(* non-vacuity: in the concrete scenario (Scenario.v) trader 21's ClosePosition succeeds, leaves no position,
   every premise of the theorem holds, and the wallet moves by exactly margin + PnL (no fees, no funding) *)
Definition c04_example : bool :=
  match scenario with
  | Ok w =>
      match exec_op (-1) w (OEngine 21 (EClosePosition 11 0) 0) with
      | Ok w' =>
          let p := read_position (w_eng w) 11 21 in
          pos_wfb p && wf0b (cumulative_premium_fraction (w_eng w) 11) && (0 <? e_dec (ec (w_eng w))) &&
          negb (21 =? A_ENGINE) && negb (21 =? A_IFUND) && negb (21 =? if_engine (w_if w)) &&
          negb (21 =? e_ifund (ec (w_eng w))) && negb (21 =? e_feepool (ec (w_eng w))) &&
          match find_position (w_eng w') 11 21 with None => true | Some _ => false end &&
          negb (bal (w_tok w') 21 =? bal (w_tok w) 21)
      | Err _ => false
      end
  | Err _ => false
  end.
Example C04_nonvacuous : c04_example = true.
Proof. vm_compute. reflexivity. Qed.

(* END TO END, third clause.  In every trader-initiated transaction - OpenPosition on any path (new, increase,
   reduce, reversal with or without re-opening), ClosePosition (whole or partial), DepositMargin, WithdrawMargin -
   the insurance fund's balance falls by no more than the prepaid bad debt the engine records in that same
   transaction.  Proved through the whole message tree with the potential
   fund balance + recorded prepaid bad debt - draws still queued, which never decreases (tx_floor, through dispatched_floor).
   Side conditions: fee ratios and decimals of the vAMMs are non-negative / positive (fees_ok), the trader is not the
   fund, stored notionals and sizes are non-negative magnitudes. *)
Theorem C04_open_position_tx_draw_recorded : forall f w t v s m l lim funds w',
  exec_op f w (OEngine t (EOpenPosition v s m l lim) funds) = Ok w' ->
  (fees_ok w /\ t <> A_IFUND /\ 0 <= p_notional (read_position (w_eng w) v t)) ->
  0 <= m -> 0 <= l -> 0 < e_dec (ec (w_eng w)) ->
  bal (w_tok w) A_IFUND - bal (w_tok w') A_IFUND <= e_bad_debt (es (w_eng w')) - e_bad_debt (es (w_eng w)).
Proof.
  intros f w t v s m l lim funds w'. intros H (Hf & Ht & Hpn) Hm Hl HD. apply (tx_floor _ _ _ _ _ _ H Ht). clear H. intros t0 w1 subs H.
  cbn [engine_execute] in H. destruct (open_position_shape _ _ _ _ _ _ _ _ _ _ H) as (pn & upnl & _ & -> & ->). cbn [w_eng w_env set_tok].
  assert (Hq : 0 <= m * l / e_dec (ec (w_eng w))) by (apply Z.div_pos; nia).
  destruct (_ || _ || _); [|match goal with |- context [if ?c then swap_input_msg _ _ _ _ _ _ else _] => destruct c end];
    cbn [readyF draws internal_increase_position swap_input_msg swap_output_msg sm_reply wants_ok sm_msg sm_id w_eng set_eng es eng_set_sent eng_set_tmp];
    (split; [|lia]); (split; [reflexivity|split; [reflexivity|]]); (split; [reflexivity|split; [exact Hf|split; [auto 6|]]]);
    eexists; (split; [reflexivity|]); cbn [ts_vamm ts_trader ts_side ts_open_notional];
    (split; [exact Ht|split; [exact Hq|exact (get_position_notional w t v s Hpn)]]).
Qed.
Print Assumptions C04_open_position_tx_draw_recorded.

Theorem C04_close_position_tx_draw_recorded : forall f w t v lim funds w' vm,
  exec_op f w (OEngine t (EClosePosition v lim) funds) = Ok w' ->
  (fees_ok w /\ t <> A_IFUND /\ 0 <= p_notional (read_position (w_eng w) v t)) ->
  get_vamm w v = Ok vm -> wfv vm ->
  0 <= sval (p_size (read_position (w_eng w) v t)) -> 0 <= e_plr (ec (w_eng w)) -> 0 < e_dec (ec (w_eng w)) ->
  bal (w_tok w) A_IFUND - bal (w_tok w') A_IFUND <= e_bad_debt (es (w_eng w')) - e_bad_debt (es (w_eng w)).
Proof.
  intros f w t v lim funds w' vm. intros H (Hf & Ht & Hpn) _ _ _ _ _. apply (tx_floor _ _ _ _ _ _ H Ht). clear H. intros t0 w1 subs H.
  cbn [engine_execute] in H. unfold e_close_position, internal_close_position in H. cbn [w_eng w_env set_tok] in H. arm H.
  all: cbn [readyF draws swap_output_msg sm_reply wants_ok sm_msg sm_id w_eng set_eng es eng_set_tmp];
    (split; [|lia]); (split; [reflexivity|split; [reflexivity|]]); (split; [reflexivity|split; [exact Hf|split; [auto 6|]]]);
    eexists; (split; [reflexivity|]); cbn [ts_vamm ts_trader ts_side ts_open_notional];
    (split; [exact Ht|split; [|exact (get_position_notional w t v _ Hpn)]]).
  - match goal with Hq : q_output_amount _ _ _ = Ok _ |- _ => exact (output_price_nonneg _ _ _ _ _ _ Hq) end.
  - exact Hpn.
Qed.
Print Assumptions C04_close_position_tx_draw_recorded.

Theorem C04_deposit_margin_tx_draw_recorded : forall f w t v amount funds w',
  exec_op f w (OEngine t (EDepositMargin v amount) funds) = Ok w' -> t <> A_IFUND ->
  bal (w_tok w) A_IFUND - bal (w_tok w') A_IFUND <= e_bad_debt (es (w_eng w')) - e_bad_debt (es (w_eng w)).
Proof.
  intros f w t v amount funds w'. intros H Ht. apply (tx_floor _ _ _ _ _ _ H Ht). clear H. intros t0 w1 subs H.
  cbn [engine_execute] in H. unfold e_deposit_margin in H. cbn [w_eng w_env w_tok set_tok] in H. arm H.
  cbn [w_eng set_eng es store_position]. defn subs; rewrite ?draws_pull; cbn [draws]; (split; [|lia]).
  - exact I.
  - apply readyF_leafy; (constructor; [|constructor]); [apply noreply_leafy_transfer_from|apply okleaf_pull, Ht].
Qed.
Print Assumptions C04_deposit_margin_tx_draw_recorded.

Theorem C04_withdraw_margin_tx_draw_recorded : forall f w t v amount funds w',
  exec_op f w (OEngine t (EWithdrawMargin v amount) funds) = Ok w' -> t <> A_IFUND ->
  bal (w_tok w) A_IFUND - bal (w_tok w') A_IFUND <= e_bad_debt (es (w_eng w')) - e_bad_debt (es (w_eng w)).
Proof.
  intros f w t v amount funds w'. intros H Ht. apply (tx_floor _ _ _ _ _ _ H Ht). clear H. intros t0 w1 subs H.
  cbn [engine_execute] in H. unfold e_withdraw_margin in H. cbn [w_eng w_env set_tok] in H. arm H.
  match goal with Hw : withdraw _ _ _ _ _ = Ok _ |- _ => destruct (okleaf_withdraw _ _ _ _ _ _ _ Hw Ht) as [O B] end.
  split; [apply readyF_leafy; [leafy_goal|exact O]|exact B].
Qed.
Print Assumptions C04_withdraw_margin_tx_draw_recorded.

(* non-vacuity: a close that does draw on the fund.  Price band off; trader 23 opens a 5x long, trader 24 a larger
   one on top; 23 closes in profit and its payout exceeds the vault, so the fund is drawn on; the draw equals the
   prepaid bad debt recorded by that transaction, and the hypotheses of the close theorem hold in that state *)
Definition c04_draw_example : bool :=
  match scenario with
  | Ok w0 =>
      let w := run w0 [OVamm 1 11 (WUpdateConfig (mkVupdate None None None None (Some 0) None None None None));
                       OToken 1 (TMint 23 1000000000000); OToken 23 (TIncreaseAllowance 1000000000000);
                       OToken 1 (TMint 24 1000000000000); OToken 24 (TIncreaseAllowance 1000000000000);
                       OEngine 23 (EOpenPosition 11 Buy 25000000 5000000 0) 0; OBlock 10 1;
                       OEngine 24 (EOpenPosition 11 Buy 80000000 5000000 0) 0; OBlock 10 1] in
      match get_vamm w 11, exec_op (-1) w (OEngine 23 (EClosePosition 11 0) 0) with
      | Ok vm, Ok w' =>
          let drop := bal (w_tok w) A_IFUND - bal (w_tok w') A_IFUND in
          let rec := e_bad_debt (es (w_eng w')) - e_bad_debt (es (w_eng w)) in
          (0 <? drop) && (drop =? rec) &&
          (0 <=? p_notional (read_position (w_eng w) 11 23)) && (0 <? v_dec (vc vm)) && (0 <=? v_q (vs vm)) && (0 <=? v_b (vs vm))
      | _, _ => false
      end
  | Err _ => false
  end.
Example C04_draw_recorded_nonvacuous : c04_draw_example = true.
Proof. vm_compute. reflexivity. Qed.
