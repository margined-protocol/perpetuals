(* C15: per-block price band. *)
From MP.Model Require Import Prelude U128 SInt Feed Vamm VammOps Token World Engine Runtime.
From MP.Proofs Require Import Tactics VammFacts SwapFacts HandlerFacts MirrorFacts MoreFacts PendingFacts BandFacts.
From MP.Model Require Import Scenario.

(* with a non-zero limit, a trade that may not go over the limit (every opening / increasing /
   reducing swap_input of OpenPosition) is accepted only if the price before it and the price after
   it both lie inside the integer band around the reference snapshot *)
Theorem C15_trade_stays_in_band : forall v e d qa ba,
  v_fluct (vc v) <> 0 ->
  check_fluctuation v e d qa ba false = Ok tt ->
  exists upper lower cur price,
    price_boundaries v e = Ok (upper, lower) /\
    spot_of (v_dec (vc v)) (v_q (vs v)) (v_b (vs v)) = Ok cur /\ in_band cur upper lower /\
    (match d with
     | AddToAmm => spot_of (v_dec (vc v)) (v_q (vs v) + qa) (v_b (vs v) - ba)
     | RemoveFromAmm => spot_of (v_dec (vc v)) (v_q (vs v) - qa) (v_b (vs v) + ba)
     end) = Ok price /\ in_band price upper lower.
Proof. exact check_fluctuation_band. Qed.
Print Assumptions C15_trade_stays_in_band.

(* every trade (of either kind) is rejected when the price is already outside the band *)
Theorem C15_already_outside_rejected : forall v e d qa ba cgo upper lower cur,
  v_fluct (vc v) <> 0 ->
  price_boundaries v e = Ok (upper, lower) ->
  spot_of (v_dec (vc v)) (v_q (vs v)) (v_b (vs v)) = Ok cur ->
  ~ in_band cur upper lower ->
  check_fluctuation v e d qa ba cgo = Err EGuard.
Proof.
  intros v e d qa ba cgo upper lower cur. intros Hf Hb Hc Hn. unfold check_fluctuation. apply Z.eqb_neq in Hf. rewrite Hf, Hb. cbn [bind]. rewrite Hc. cbn [bind].
  destruct (out_of_band cur upper lower) eqn:E; [reflexivity|]. apply out_of_band_iff in E. contradiction.
Qed.
Print Assumptions C15_already_outside_rejected.

(* a swap_input that may not go over the limit - accepted on a vAMM with a non-zero limit - starts inside
   the band around the previous block's reference price and leaves the spot price of the state it stores
   inside that same band *)
Theorem C15_swap_input_ends_in_band : forall v e s d quote lim v' qa ba,
  wfv v -> 0 <= quote -> v_fluct (vc v) <> 0 ->
  swap_input v e s d quote lim false = Ok (v', (qa, ba)) ->
  exists upper lower cur post,
    price_boundaries v e = Ok (upper, lower) /\
    spot_of (v_dec (vc v)) (v_q (vs v)) (v_b (vs v)) = Ok cur /\ in_band cur upper lower /\
    spot_of (v_dec (vc v')) (v_q (vs v')) (v_b (vs v')) = Ok post /\ in_band post upper lower.
Proof. intros; eapply swap_input_in_band; eauto. Qed.
Print Assumptions C15_swap_input_ends_in_band.

(* the swaps of an OpenPosition: one swap_input with can_go_over = false (new / increase / reduce), or - a
   reversal - the swap_output of the whole old position, whose reply re-opens through a swap_input that
   again may not go over the limit *)
Theorem C15_open_swaps : forall w t v s m l lim f w' subs,
  e_open_position w t v s m l lim f = Ok (w', subs) ->
  exists msg, subs = [msg] /\
    ((exists q id, sm_msg msg = MSwapInput v (side_to_direction s) q lim false /\ sm_id msg = id /\ (id = INCREASE_ID \/ id = DECREASE_ID)) \/
     (exists d b, sm_msg msg = MSwapOutput v d b 0 /\ sm_id msg = REVERSE_ID)).
Proof.
  intros w t v s m l lim f w' subs. intros H. destruct (open_position_shape _ _ _ _ _ _ _ _ _ _ H) as (pn & upnl & _ & _ & ->).
  eexists. split; [reflexivity|]. destr_if; [|destr_if].
  - left. do 2 eexists. split; [reflexivity|]. split; [reflexivity|left; reflexivity].
  - left. do 2 eexists. split; [reflexivity|]. split; [reflexivity|right; reflexivity].
  - right. do 2 eexists. split; reflexivity.
Qed.
Print Assumptions C15_open_swaps.
Theorem C15_reopen_leg_cannot_go_over : forall v s n l,
  sm_msg (internal_increase_position v s n l) = MSwapInput v (side_to_direction s) n l false.
Proof. intros v s n l. reflexivity. Qed.
Print Assumptions C15_reopen_leg_cannot_go_over.

(* the vAMM's answer to IsOverFluctuationLimit: the price after swapping the base amount out, compared
   with the band around the previous block's reference price *)
Theorem C15_over_limit_meaning : forall v e d base r,
  v_fluct (vc v) <> 0 -> q_is_over_fluctuation_limit v e d base = Ok r ->
  exists upper lower quote price,
    price_boundaries v e = Ok (upper, lower) /\ q_output_amount v d base = Ok quote /\
    (match d with
     | RemoveFromAmm => spot_of (v_dec (vc v)) (v_q (vs v) + quote) (v_b (vs v) - base)
     | AddToAmm => spot_of (v_dec (vc v)) (v_q (vs v) - quote) (v_b (vs v) + base)
     end) = Ok price /\
    r = out_of_band price upper lower.
Proof.
  intros v e d base r. intros Hf H. unfold q_is_over_fluctuation_limit in H. apply Z.eqb_neq in Hf. rewrite Hf in H.
  destruct (price_boundaries v e) as [[upper lower]|]; [|discriminate]. cbn [bind] in H.
  destruct (q_output_amount v d base) as [quote|]; [|discriminate]. cbn [bind] in H.
  match type of H with bind ?m _ = _ => destruct m as [price|] eqn:Em; [|discriminate] end. cbn [bind] in H.
  inv_ok. exists upper, lower, quote, price. repeat split.
  destruct d; inv_bind Em; inv_bind Em; inv_bind Em; unfold spot_of;
  match goal with
  | Ha : cadd _ _ = Ok _, Hsb : csub _ _ = Ok _ |- _ =>
      apply cadd_ok in Ha; destruct Ha as [Ha _]; apply csub_ok in Hsb; destruct Hsb as [Hsb _]; subst
  end;
  match goal with Hmul : cmul _ _ = Ok _ |- _ => rewrite Hmul end; cbn [bind]; assumption.
Qed.
Print Assumptions C15_over_limit_meaning.

(* ClosePosition swaps the whole position out unless that would leave the price outside the band and the
   partial ratio is below 100%; then it swaps out exactly floor(|size| x ratio / D) base *)
Theorem C15_close_whole_or_exact_fraction : forall w t v lim w' subs,
  e_close_position w t v lim = Ok (w', subs) ->
  let p := read_position (w_eng w) v t in
  let c := ec (w_eng w) in
  let dir := if sgtb (p_size p) szero then AddToAmm else RemoveFromAmm in
  exists vm over, get_vamm w v = Ok vm /\ q_is_over_fluctuation_limit vm (w_env w) dir (sval (p_size p)) = Ok over /\
    sval (p_size p) <> 0 /\
    (if over && (e_plr c <? e_dec c)
     then subs = [swap_output_msg v (direction_to_side (p_dir p)) (sval (p_size p) * e_plr c / e_dec c) 0 PARTIAL_CLOSE_ID]
     else subs = [swap_output_msg v (direction_to_side (p_dir p)) (sval (p_size p)) lim CLOSE_ID]).
Proof.
  intros w t v lim w' subs H. destruct (close_position_shape _ _ _ _ _ _ H) as (vm & over & tm & Hv & Ho & Hnz & _ & _ & _ & Hs). cbv zeta.
  exists vm, over. repeat split; try assumption. destruct (over && _); apply Hs.
Qed.
Print Assumptions C15_close_whole_or_exact_fraction.

(* END TO END.  A successful OpenPosition transaction (the whole message tree: swap, reply, a reversal's
   second swap and reply, fee and margin transfers, insurance-fund draws; any fault index) on a vAMM with a
   non-zero limit either leaves the sender without a position on that vAMM, or leaves that vAMM's spot price
   inside the band [lower, upper] that its state before the transaction defines around the previous block's
   reference price.  `stable`: the reference snapshot exists (the newest snapshot is from an earlier block,
   or there is an older one). *)
Theorem C15_open_position_ends_in_band : forall f w t v s m l lim funds w' vm0,
  exec_op f w (OEngine t (EOpenPosition v s m l lim) funds) = Ok w' ->
  zfind v (w_vamms w) = Some vm0 -> wfv vm0 -> v_fluct (vc vm0) <> 0 -> stable vm0 (w_env w) ->
  0 <= m -> 0 <= l -> 0 < e_dec (ec (w_eng w)) ->
  (forall p, find_position (w_eng w) v t = Some p -> 0 <= sval (p_size p)) ->
  (exists vm', zfind v (w_vamms w') = Some vm' /\
     exists upper lower p, price_boundaries vm0 (w_env w) = Ok (upper, lower) /\
       spot_of (v_dec (vc vm')) (v_q (vs vm')) (v_b (vs vm')) = Ok p /\ in_band p upper lower) \/
  sval (p_size (read_position (w_eng w') v t)) = 0.
Proof.
  intros f w t v s m l lim funds w' vm0. intros H Hz Hwf Hfl Hst _ _ _ Hpos. apply exec_engine_tok in H. destruct H as (tk & w1 & subs & n & He & Hd).
  apply (open_position_readyb _ _ _ _ _ _ _ _ _ _ vm0) in He; try assumption.
  revert Hd He. apply dispatched_pending; [apply goalb_core|apply pendb_core|apply pendb_is_swap|apply pair_band].
Qed.
Print Assumptions C15_open_position_ends_in_band.

(* non-vacuity: in the concrete scenario (non-zero limit, reference snapshot from an earlier block) an
   increasing and a reversing OpenPosition succeed and every premise of the end-to-end theorem holds *)
Definition c15_example : bool :=
  match scenario with
  | Ok w =>
      match zfind 11 (w_vamms w) with
      | Some vm0 =>
          wfvb vm0 && negb (v_fluct (vc vm0) =? 0) && stableb vm0 (w_env w) && (0 <? e_dec (ec (w_eng w))) &&
          (0 <=? sval (p_size (read_position (w_eng w) 11 21))) &&
          match exec_op (-1) w (OEngine 21 (EOpenPosition 11 Buy 1000000 2000000 0) 0) with Ok _ => true | Err _ => false end &&
          match exec_op (-1) w (OEngine 21 (EOpenPosition 11 Sell 8000000 2000000 0) 0) with
          | Ok w' => negb (sval (p_size (read_position (w_eng w') 11 21)) =? 0) | Err _ => false end
      | None => false
      end
  | Err _ => false
  end.
Example C15_nonvacuous : c15_example = true.
Proof. vm_compute. reflexivity. Qed.

(* END TO END, the close clause.  What a successful ClosePosition transaction leaves behind is decided by the vAMM's
   answer (on the state the transaction started from) to "would closing the whole position leave the band?": if not,
   or if the partial ratio is 100%, the position is gone; otherwise exactly floor(size x ratio / D) base is taken off
   it, its direction kept.  (C15_over_limit_meaning says what the answer means; with a zero limit it is always "no".) *)
Theorem C15_close_position_tx_choice : forall f w t v lim funds w',
  exec_op f w (OEngine t (EClosePosition v lim) funds) = Ok w' ->
  let p := read_position (w_eng w) v t in
  let c := ec (w_eng w) in
  let dir := if sgtb (p_size p) szero then AddToAmm else RemoveFromAmm in
  exists vm over, get_vamm w v = Ok vm /\ q_is_over_fluctuation_limit vm (w_env w) dir (sval (p_size p)) = Ok over /\
    (over && (e_plr c <? e_dec c) = false -> find_position (w_eng w') v t = None) /\
    (over && (e_plr c <? e_dec c) = true ->
       exists p', find_position (w_eng w') v t = Some p' /\ p_dir p' = p_dir p /\
         sadd (p_size p) (signed_out (position_to_side (p_size p)) (sval (p_size p) * e_plr c / e_dec c)) = Ok (p_size p')).
Proof.
  intros f w t v lim funds w'. intros H p c dir. apply exec_engine_tok in H. destruct H as (tk & w1 & subs & n & He & Hd). cbn [engine_execute] in He.
  destruct (close_position_shape _ _ _ _ _ _ He) as (vm & over & tm & Hv & Hov & Hnz & -> & T1 & T2 & Hsub).
  cbv zeta in Hov, Hnz, Hsub. cbn [w_eng w_env set_tok] in Hov, Hnz, Hsub.
  exists vm, over. split; [exact Hv|]. split; [exact Hov|].
  (* the one message is a swap that is answered; what the answer emits are leaves, which leave the engine alone *)
  fold p in Hnz, Hsub. fold c in Hsub.
  destruct (over && (e_plr c <? e_dec c)); [destruct Hsub as [T3 ->]|destruct Hsub as [_ ->]];
    (split; intros Hc; try discriminate Hc; clear Hc);
    apply dispatched_swap_output in Hd; destruct Hd as (vm0 & vm' & qa & wb & sb & _ & _ & Er & Hd).
  - rewrite reply_partial_close in Er.
    destruct (partial_close_position_reply_shape _ _ _ _ _ tm Er eq_refl) as (p' & Hw & Hadd & Hdir & _).
    cbv zeta in Hw, Hadd, Hdir. cbn [w_eng w_env set_vamm set_eng set_tok] in Hadd, Hdir.
    rewrite T1, T2 in Hw, Hadd, Hdir. rewrite get_position_read in Hadd, Hdir by exact Hnz. rewrite T3 in Hadd.
    destruct (dispatched_leafy_core _ _ _ _ _ _ _ Hd (partial_close_position_reply_leafy _ _ _ _ _ Er)) as [Ee _].
    exists p'. rewrite Ee. split; [exact (writes_find _ _ _ _ _ Hw)|]. split; [exact Hdir|exact Hadd].
  - rewrite reply_close in Er.
    pose proof (close_position_reply_shape _ _ _ _ _ tm Er eq_refl) as Hw. rewrite T1, T2 in Hw.
    destruct (dispatched_leafy_core _ _ _ _ _ _ _ Hd (close_position_reply_leafy _ _ _ _ _ Er)) as [Ee _].
    rewrite Ee. exact (writes_find _ _ _ _ _ Hw).
Qed.
Print Assumptions C15_close_position_tx_choice.
