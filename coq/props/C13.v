(* C13: outcomes do not depend on whether collateral is native or cw20.
   Proved so far (the full two-world simulation was refuted for reversals until fix 4c6978e, and is still
   refuted when a native payout needs an insurance-fund draw, see known_findings):
   the single builder that depends on the collateral kind; for the open/increase path that a
   native call is accepted only with exactly the amount a cw20 deployment pulls; and, at transaction level,
   that twin deployments which both carry out a DepositMargin, WithdrawMargin, whole ClosePosition, full or
   partial Liquidate end with the same stored position and the same wallets for the caller (the native call
   attaching what the cw20 deployment pulls); that an OpenPosition by a trader without a position leaves both
   with the same size and the same fund and fee-pool balances (C13_twin_open_new), and that an OpenPosition on any
   path pays the fee pool the same amount in both (C13_twin_open_pool).  Not proved: that the native call succeeds
   whenever the cw20 one does (false when a payout needs an insurance-fund draw, known finding), and, for
   OpenPosition on an existing position, anything beyond the fee pool's balance. *)
From MP.Model Require Import Prelude U128 SInt Feed Vamm VammOps Token World Engine Runtime.
From MP.Proofs Require Import Tactics SIntFacts MirrorFacts EngineArith CloseTxFacts FeeFlowFacts LiqTxFacts
 MarginTxFacts OpenTxFacts TwinTxFacts.
From MP.Model Require Import Scenario.

Theorem C13_only_transfer_from_differs : forall w owner receiver amt,
  execute_transfer_from w owner receiver amt =
    if t_native (w_tok w) then mkSub (MTransfer receiver amt) TRANSFER_FAILURE_ID RError
    else mkSub (MTransferFrom owner receiver amt) TRANSFER_FAILURE_ID RError.
Proof. intros w owner receiver amt. reflexivity. Qed.
Print Assumptions C13_only_transfer_from_differs.

Theorem C13_sent_funds_exact : forall f, are_sufficient f = Ok tt <-> sf_amount f = sf_required f.
Proof.
  intros f. unfold are_sufficient. destruct (Z.eqb_spec (sf_amount f) (sf_required f)); split; intros H; auto; try discriminate. contradiction.
Qed.
Print Assumptions C13_sent_funds_exact.

Theorem C13_increase_native_needs_cw20_pull_partial : forall w i o w' subs swap funds,
  t_native (w_tok w) = true ->
  e_tmp (w_eng w) = Some swap -> e_sent (w_eng w) = Some funds ->
  ts_fees_paid swap = false -> ts_mtv swap = szero -> 0 <= ts_open_notional swap -> 0 < ts_leverage swap -> 0 <= e_dec (ec (w_eng w)) ->
  update_position_reply w i o INCREASE_ID = Ok (w', subs) ->
  exists vm toll spread,
    get_vamm w (ts_vamm swap) = Ok vm /\ q_calc_fee vm (ts_open_notional swap) = Ok (toll, spread) /\
    sf_amount funds = sf_required funds + ts_open_notional swap * e_dec (ec (w_eng w)) / ts_leverage swap + spread + toll.
Proof.
  intros w i o w' subs swap funds Hn Htmp Hsent Hfp Hmtv Hon Hlev HD H.
  unfold update_position_reply, need_tmp, need_sent in H. rewrite Htmp, Hsent in H. cbn [bind] in H.
  rewrite Z.eqb_refl in H. rewrite Hfp, Hmtv in H. cbn [negb] in H. arm H.
  match goal with Hr : _ = Ok (_, _, _, _, _) |- _ => arm Hr end. cbn [w_tok set_eng] in *. rewrite Hn in *.
  match goal with Hf : bind (transfer_fees _ _ _ _) _ = Ok _ |- _ => arm Hf end.
  match goal with Hf : transfer_fees _ _ _ _ = Ok _ |- _ => unfold transfer_fees in Hf; arm Hf end.
  match goal with Hs : are_sufficient _ = Ok ?u |- _ => destruct u; apply C13_sent_funds_exact in Hs; cbn [sf_amount sf_required] in Hs end.
  arith_ok. subst. do 3 eexists. split; [eassumption|]. split; [eassumption|].
  (* the margin to vault is that of the traded notional: it is what is added to the amount required, or it is zero *)
  match goal with Ha : schecked_add szero (spos ?sm) = Ok ?m |- _ =>
    assert (Hsm : 0 <= sm) by (apply Z.div_pos; nia);
    apply schecked_add_toZ0 in Ha; [|exact (Z.le_refl 0)|exact Hsm]; destruct Ha as (Za & Wa & _);
    pose proof (wf0_toZ_abs m Wa) as Hsv; change szero with (spos 0) in *; rewrite !toZ_spos in Za;
    rewrite (sltb_spos0 _ _ Wa (Z.le_refl 0)), (sgtb_spos0 _ _ Wa (Z.le_refl 0)) in * end.
  match goal with Hs : sf_amount funds = ?r + _ + _ |- _ => rewrite Hs; defn r end; arith_ok; zb; lia.
Qed.
Print Assumptions C13_increase_native_needs_cw20_pull_partial.

(* twin deployments: same engine, vAMM, fund state and ledger; one on native collateral, one on cw20 *)
Theorem C13_twin_deposit : forall fc fn wc wn t v amount fundsn wc' wn',
  twin wc wn ->
  exec_op fc wc (OEngine t (EDepositMargin v amount) 0) = Ok wc' ->
  exec_op fn wn (OEngine t (EDepositMargin v amount) fundsn) = Ok wn' ->
  t <> A_ENGINE -> t <> A_IFUND -> t <> if_engine (w_if wc) ->
  find_position (w_eng wc') v t = find_position (w_eng wn') v t /\
  bal (w_tok wc') t = bal (w_tok wn') t.
Proof.
  intros fc fn wc wn t v amount fundsn wc' wn' Htw Hc Hn H1 _ _. pose proof Htw as (_ & _ & He & _ & _ & _ & Hb).
  destruct (deposit_margin_tx _ _ _ _ _ _ _ Hc H1) as (pc & Hfc & Hfc' & _ & Hbc).
  destruct (deposit_margin_tx _ _ _ _ _ _ _ Hn H1) as (pn & Hfn & Hfn' & _ & Hbn).
  rewrite He in Hfc. rewrite Hfc in Hfn. injection Hfn as <-.
  split; [rewrite Hfc', Hfn'; reflexivity|]. rewrite Hbc, Hbn, Hb. reflexivity.
Qed.
Print Assumptions C13_twin_deposit.

Theorem C13_twin_withdraw : forall fc fn wc wn t v amount wc' wn',
  twin wc wn ->
  exec_op fc wc (OEngine t (EWithdrawMargin v amount) 0) = Ok wc' ->
  exec_op fn wn (OEngine t (EWithdrawMargin v amount) 0) = Ok wn' ->
  let p := read_position (w_eng wc) v t in
  pos_wf p -> cpf_wf (w_eng wc) v -> 0 < e_dec (ec (w_eng wc)) -> 0 <= amount ->
  t <> A_ENGINE -> t <> A_IFUND -> t <> if_engine (w_if wc) ->
  bal (w_tok wc') t = bal (w_tok wn') t /\
  exists pc pn, find_position (w_eng wc') v t = Some pc /\ find_position (w_eng wn') v t = Some pn /\
    p_margin pc = p_margin pn /\ p_size pc = p_size pn /\ p_notional pc = p_notional pn /\ p_lupf pc = p_lupf pn.
Proof.
  intros fc fn wc wn t v amount wc' wn' Htw Hc Hn p Hp Hcw HD Ha H1 H2 H3. subst p. pose proof Htw as (_ & _ & He & _ & _ & Hif & Hb).
  destruct (withdraw_margin_tx _ _ _ _ _ _ _ Hc Hp Hcw HD Ha H1 H2 H3) as (Hbc & pc & Hfc & Hmc & _ & Hsc & Hnc & Hlc).
  rewrite <- (twin_funding_owed _ _ _ _ Htw) in Hmc. rewrite He, Hif in *.
  destruct (withdraw_margin_tx _ _ _ _ _ _ _ Hn Hp Hcw HD Ha H1 H2 H3) as (Hbn & pn & Hfn & Hmn & _ & Hsn & Hnn & Hln).
  split; [rewrite Hbc, Hbn, Hb; reflexivity|].
  exists pc, pn. repeat split; try assumption; congruence.
Qed.
Print Assumptions C13_twin_withdraw.

(* whole close: the native wallet plus what was attached equals the cw20 wallet plus the fees it was charged; with
   exactly the fees attached the two wallets are equal *)
Theorem C13_twin_close : forall fc fn wc wn t v lim fundsn wc' wn',
  twin wc wn ->
  exec_op fc wc (OEngine t (EClosePosition v lim) 0) = Ok wc' ->
  exec_op fn wn (OEngine t (EClosePosition v lim) fundsn) = Ok wn' ->
  let p := read_position (w_eng wc) v t in
  pos_wf p -> cpf_wf (w_eng wc) v -> 0 < e_dec (ec (w_eng wc)) ->
  t <> A_ENGINE -> t <> A_IFUND -> t <> if_engine (w_if wc) ->
  t <> e_ifund (ec (w_eng wc)) -> t <> e_feepool (ec (w_eng wc)) ->
  find_position (w_eng wc') v t = None -> find_position (w_eng wn') v t = None ->
  exists vm, get_vamm wc v = Ok vm /\
    bal (w_tok wn') t + fundsn =
    bal (w_tok wc') t + fee_of vm (p_notional p) (v_spread (vc vm)) + fee_of vm (p_notional p) (v_toll (vc vm)).
Proof.
  intros fc fn wc wn t v lim fundsn wc' wn' Htw Hc Hn p Hp Hcw HD H1 H2 H3 H4 H5 Hgc Hgn. subst p. pose proof Htw as (Hnc & Hnn & He & _ & Henv & Hif & Hb).
  destruct (close_position_tx_pays _ _ _ _ _ _ _ Hc Hp Hcw HD H1 H2 H3 H4 H5 Hgc) as (vm & vm' & o & Hv & Hs & _ & Hbc).
  exists vm. split; [exact Hv|]. rewrite <- (twin_funding_owed _ _ _ _ Htw) in Hbc. rewrite He, Hif, Henv in *.
  destruct (close_position_tx_pays _ _ _ _ _ _ _ Hn Hp Hcw HD H1 H2 H3 H4 H5 Hgn) as (vm2 & vm2' & o2 & Hv2 & Hs2 & _ & Hbn).
  rewrite (twin_get_vamm _ _ _ Htw), Hv in Hv2. injection Hv2 as <-. rewrite Hs in Hs2. injection Hs2 as <- <-.
  rewrite Hnc in Hbc. rewrite Hnn in Hbn. rewrite Hbc, Hbn, Hb. lia.
Qed.
Print Assumptions C13_twin_close.

Theorem C13_twin_liquidate_full : forall fc fn wc wn s v t lim wc' wn',
  twin wc wn ->
  exec_op fc wc (OEngine s (ELiquidate v t lim) 0) = Ok wc' ->
  exec_op fn wn (OEngine s (ELiquidate v t lim) 0) = Ok wn' ->
  0 < e_dec (ec (w_eng wc)) -> 0 <= e_liqfee (ec (w_eng wc)) ->
  s <> A_ENGINE -> s <> A_IFUND -> s <> if_engine (w_if wc) -> s <> e_ifund (ec (w_eng wc)) ->
  find_position (w_eng wc') v t = None -> find_position (w_eng wn') v t = None ->
  bal (w_tok wc') s = bal (w_tok wn') s /\
  (t <> s -> t <> A_ENGINE -> t <> A_IFUND -> t <> if_engine (w_if wc) -> t <> e_ifund (ec (w_eng wc)) ->
     bal (w_tok wc') t = bal (w_tok wn') t).
Proof.
  intros fc fn wc wn s v t lim wc' wn' Htw Hc Hn _ _ H1 H2 H3 H4 Hgc Hgn. pose proof Htw as (_ & _ & He & _ & Henv & Hif & Hb).
  destruct (liquidate_tx_pays _ _ _ _ _ _ _ _ Hc H1 H2 H3 H4 Hgc) as (vm & vm' & o & Hv & Hs & Hbc & Htc).
  rewrite He, Hif, Henv in *.
  destruct (liquidate_tx_pays _ _ _ _ _ _ _ _ Hn H1 H2 H3 H4 Hgn) as (vm2 & vm2' & o2 & Hv2 & Hs2 & Hbn & Htn).
  rewrite (twin_get_vamm _ _ _ Htw), Hv in Hv2. injection Hv2 as <-. rewrite Hs in Hs2. injection Hs2 as <- <-.
  split; [rewrite Hbc, Hbn, Hb; reflexivity|].
  intros T1 T2 T3 T4 T5. rewrite (Htc T1 T2 T3 T4 T5), (Htn T1 T2 T3 T4 T5). apply Hb.
Qed.
Print Assumptions C13_twin_liquidate_full.

Theorem C13_twin_liquidate_partial : forall fc fn wc wn s v t lim wc' wn',
  twin wc wn ->
  exec_op fc wc (OEngine s (ELiquidate v t lim) 0) = Ok wc' ->
  exec_op fn wn (OEngine s (ELiquidate v t lim) 0) = Ok wn' ->
  let p := read_position (w_eng wc) v t in let c := ec (w_eng wc) in
  coherent p -> 0 <= e_plr c -> 0 < e_dec c ->
  s <> A_ENGINE -> s <> A_IFUND -> s <> if_engine (w_if wc) -> s <> e_ifund c ->
  (exists p1, find_position (w_eng wc') v t = Some p1) -> (exists p1, find_position (w_eng wn') v t = Some p1) ->
  bal (w_tok wc') s = bal (w_tok wn') s /\
  exists pc pn, find_position (w_eng wc') v t = Some pc /\ find_position (w_eng wn') v t = Some pn /\
    toZ (p_size pc) = toZ (p_size pn) /\ p_dir pc = p_dir pn.
Proof.
  intros fc fn wc wn s v t lim wc' wn' Htw Hc Hn p c Hco Hpl HD H1 H2 H3 H4 Hlc Hln. subst p c. pose proof Htw as (_ & _ & He & _ & Henv & Hif & Hb).
  destruct (partial_liquidation_tx _ _ _ _ _ _ _ _ Hc Hco Hpl HD H1 H2 H3 H4 Hlc) as (pc & vm & vm' & o & Hfc & Hv & Hs & Hsz & Hdir & Hbc).
  rewrite He, Hif, Henv in *.
  destruct (partial_liquidation_tx _ _ _ _ _ _ _ _ Hn Hco Hpl HD H1 H2 H3 H4 Hln) as (pn & vm2 & vm2' & o2 & Hfn & Hv2 & Hs2 & Hsz2 & Hdir2 & Hbn).
  rewrite (twin_get_vamm _ _ _ Htw), Hv in Hv2. injection Hv2 as <-. cbv zeta in *. rewrite Hs in Hs2. injection Hs2 as <- <-.
  split; [rewrite Hbc, Hbn, Hb; reflexivity|].
  exists pc, pn. repeat split; try assumption; congruence.
Qed.
Print Assumptions C13_twin_liquidate_partial.

Theorem C13_twin_open_new : forall fc fn wc wn t v s m l lim fundsn wc' wn' vm,
  twin wc wn ->
  exec_op fc wc (OEngine t (EOpenPosition v s m l lim) 0) = Ok wc' ->
  exec_op fn wn (OEngine t (EOpenPosition v s m l lim) fundsn) = Ok wn' ->
  find_position (w_eng wc) v t = None -> get_vamm wc v = Ok vm -> 0 <= m -> 0 <= l -> 0 < e_dec (ec (w_eng wc)) ->
  wf0 (v_total (vs vm)) ->
  let ifund := e_ifund (ec (w_eng wc)) in let pool := e_feepool (ec (w_eng wc)) in
  ifund <> pool -> ifund <> A_ENGINE -> pool <> A_ENGINE -> t <> ifund -> t <> pool ->
  bal (w_tok wc') ifund = bal (w_tok wn') ifund /\ bal (w_tok wc') pool = bal (w_tok wn') pool /\
  exists pc pn, find_position (w_eng wc') v t = Some pc /\ find_position (w_eng wn') v t = Some pn /\
    toZ (p_size pc) = toZ (p_size pn).
Proof.
  intros fc fn wc wn t v s m l lim fundsn wc' wn' vm Htw Hc Hn Hnone Hv Hm Hl HD Hwt ifund pool D1 D2 D3 D4 D5. subst ifund pool.
  pose proof Htw as (_ & _ & He & _ & Henv & Hif & Hb).
  assert (Hv2 : get_vamm wn v = Ok vm) by (rewrite (twin_get_vamm _ _ _ Htw); exact Hv).
  destruct (open_new_position_tx_fees _ _ _ _ _ _ _ _ _ _ _ Hc Hnone Hv Hm Hl HD D1 D2 D3 D4 D5) as [Hic Hpc].
  destruct (open_new_position_tx_swap _ _ _ _ _ _ _ _ _ _ _ Hc Hnone Hv HD Hwt) as (vm1 & ba & Hs & _ & pc & Hfc & Hsz).
  rewrite He, Henv in *.
  destruct (open_new_position_tx_fees _ _ _ _ _ _ _ _ _ _ _ Hn Hnone Hv2 Hm Hl HD D1 D2 D3 D4 D5) as [Hin Hpn].
  destruct (open_new_position_tx_swap _ _ _ _ _ _ _ _ _ _ _ Hn Hnone Hv2 HD Hwt) as (vm2 & ba2 & Hs2 & _ & pn & Hfn & Hsz2).
  cbv zeta in *. rewrite Hs in Hs2. injection Hs2 as <- <-.
  split; [rewrite Hic, Hin, Hb; reflexivity|]. split; [rewrite Hpc, Hpn, Hb; reflexivity|].
  exists pc, pn. repeat split; try assumption. congruence.
Qed.
Print Assumptions C13_twin_open_new.

(* OpenPosition on ANY path (new, increase, reduce, reversal): both deployments pay the fee pool the same amount *)
Theorem C13_twin_open_pool : forall fc fn wc wn t v s m l lim fundsn wc' wn' vm,
  twin wc wn ->
  exec_op fc wc (OEngine t (EOpenPosition v s m l lim) 0) = Ok wc' ->
  exec_op fn wn (OEngine t (EOpenPosition v s m l lim) fundsn) = Ok wn' ->
  get_vamm wc v = Ok vm -> 0 <= m -> 0 <= l -> 0 < e_dec (ec (w_eng wc)) ->
  let pool := e_feepool (ec (w_eng wc)) in
  pool <> A_ENGINE -> pool <> A_IFUND -> pool <> if_engine (w_if wc) -> e_ifund (ec (w_eng wc)) <> pool -> t <> pool ->
  bal (w_tok wc') pool = bal (w_tok wn') pool.
Proof.
  intros fc fn wc wn t v s m l lim fundsn wc' wn' vm Htw Hc Hn Hv _ _ _ pool P1 P2 P3 P4 P5. subst pool. pose proof Htw as (_ & _ & He & _ & _ & Hif & Hb).
  rewrite (open_position_tx_toll _ _ _ _ _ _ _ _ _ _ _ Hc Hv P1 P2 P3 P4 P5).
  assert (Hv2 : get_vamm wn v = Ok vm) by (rewrite (twin_get_vamm _ _ _ Htw); exact Hv).
  rewrite He, Hif in *.
  rewrite (open_position_tx_toll _ _ _ _ _ _ _ _ _ _ _ Hn Hv2 P1 P2 P3 P4 P5).
  rewrite Hb. reflexivity.
Qed.
Print Assumptions C13_twin_open_pool.

(* non-vacuity: the cw20 and the native scenario are twins as far as the relation can be computed (engine, vAMMs,
   fund, environment, the balances of every account of the scenario), and both carry out a whole close - the native
   one with exactly the fees attached - ending with equal wallets *)
Definition c13_twin_close_example : bool :=
  match scenario, scenario_native with
  | Ok wc, Ok wn =>
      negb (t_native (w_tok wc)) && t_native (w_tok wn) &&
      forallb (fun a => bal (w_tok wc) a =? bal (w_tok wn) a) [1; 2; 3; 4; 21; 22; 23; 31] &&
      match get_vamm wc 11 with
      | Ok vm =>
          let p := read_position (w_eng wc) 11 21 in
          let fees := fee_of vm (p_notional p) (v_spread (vc vm)) + fee_of vm (p_notional p) (v_toll (vc vm)) in
          match exec_op (-1) wc (OEngine 21 (EClosePosition 11 0) 0), exec_op (-1) wn (OEngine 21 (EClosePosition 11 0) fees) with
          | Ok wc', Ok wn' => (bal (w_tok wc') 21 =? bal (w_tok wn') 21) && negb (bal (w_tok wc') 21 =? bal (w_tok wc) 21)
          | _, _ => false
          end
      | Err _ => false
      end
  | _, _ => false
  end.
Example C13_twin_close_nonvacuous : c13_twin_close_example = true.
Proof. vm_compute. reflexivity. Qed.

(* FIXED FINDING (reverse_required_funds, fix 4c6978e in /repo): before the fix the native engine demanded the whole
   margin of the re-opened position (6058939 in this scenario) instead of that margin net of the equity the
   old position releases.  The twin scenarios that were the refutation witness now agree: the cw20 deployment
   pulls 1176817 from the trader; the native call with exactly that amount attached succeeds and costs the
   trader exactly that; the old amount is refused as excessive. *)
Definition c13_cw20_reversal : option Z :=
  match scenario with
  | Ok w => match exec_op (-1) w (OEngine 21 (EOpenPosition 11 Sell 11000000 2000000 0) 0) with
            | Ok w' => Some (bal (w_tok w) 21 - bal (w_tok w') 21) | Err _ => None end
  | Err _ => None
  end.
Definition c13_native_reversal (funds : Z) : option Z :=
  match scenario_native with
  | Ok w => match exec_op (-1) w (OEngine 21 (EOpenPosition 11 Sell 11000000 2000000 0) funds) with
            | Ok w' => Some (bal (w_tok w) 21 - bal (w_tok w') 21) | Err _ => None end
  | Err _ => None
  end.
Example C13_reversal_twins_agree_example :
  c13_cw20_reversal = Some 1176817 /\ c13_native_reversal 1176817 = Some 1176817 /\ c13_native_reversal 6058939 = None.
Proof. split; [|split]; vm_compute; reflexivity. Qed.
