(* C17: quoted amounts equal executed amounts; slippage limits are honoured. *)
From MP.Model Require Import Prelude U128 SInt Feed Vamm VammOps Token World Engine Runtime.
From MP.Proofs Require Import Tactics SIntFacts VammFacts SwapFacts RuntimeFacts HandlerFacts MoreFacts LimitTxFacts
 OpenTxFacts.

(* the swap reports and moves exactly the requested quote amount and the queried base amount *)
Theorem C17_input_quote_is_execution : forall v e s d quote lim cgo v' qa ba,
  swap_input v e s d quote lim cgo = Ok (v', (qa, ba)) ->
  qa = quote /\ q_input_amount v d quote = Ok ba.
Proof. exact swap_input_quote. Qed.
Print Assumptions C17_input_quote_is_execution.

Theorem C17_output_quote_is_execution : forall v e s d base lim v' qa ba,
  swap_output v e s d base lim = Ok (v', (qa, ba)) ->
  ba = base /\ q_output_amount v d base = Ok qa.
Proof. exact swap_output_quote. Qed.
Print Assumptions C17_output_quote_is_execution.

(* reserves move by exactly those amounts (from C01) *)
Theorem C17_input_moves_reserves : forall v e s d quote lim cgo v' qa ba,
  wfv v -> 0 <= quote ->
  swap_input v e s d quote lim cgo = Ok (v', (qa, ba)) ->
  wfv v' /\ kof v <= kof v' /\ base_plus_net v' = base_plus_net v /\ vc v' = vc v /\
  qa = quote /\ 0 <= ba /\
  match d with
  | AddToAmm => v_q (vs v') = v_q (vs v) + quote /\ v_b (vs v') = v_b (vs v) - ba
  | RemoveFromAmm => v_q (vs v') = v_q (vs v) - quote /\ v_b (vs v') = v_b (vs v) + ba
  end.
Proof. exact swap_input_c01. Qed.
Print Assumptions C17_input_moves_reserves.

(* limits: receiving base (AddToAmm) needs base >= limit, owing base (RemoveFromAmm) base <= limit *)
Theorem C17_input_limit : forall v e s d quote lim cgo base r,
  lim <> 0 -> q_input_amount v d quote = Ok base ->
  (swap_input v e s d quote lim cgo = Ok r <->
   input_limit_met d base lim = true /\ swap_input v e s d quote 0 cgo = Ok r).
Proof.
  intros v e s d quote lim cgo base r. intros Hl Hb. unfold swap_input, q_input_amount in *.
  destruct (v_open (vs v)); [|intuition discriminate].
  destruct (s =? v_engine (vc v)); [|intuition discriminate].
  apply Z.eqb_neq in Hl. rewrite Hl, Hb. cbn [bind Z.eqb negb].
  unfold input_limit_met. destruct d; rewrite Z.leb_antisym; destruct (_ <? _); cbn [negb bind]; intuition discriminate.
Qed.
Print Assumptions C17_input_limit.

(* selling base (AddToAmm) needs quote >= limit, buying base back (RemoveFromAmm) quote <= limit *)
Theorem C17_output_limit : forall v e s d base lim quote r,
  lim <> 0 -> q_output_amount v d base = Ok quote ->
  (swap_output v e s d base lim = Ok r <->
   output_limit_met d quote lim = true /\ swap_output v e s d base 0 = Ok r).
Proof.
  intros v e s d base lim quote r. intros Hl Hb. unfold swap_output, q_output_amount in *.
  destruct (v_open (vs v)); [|intuition discriminate].
  destruct (s =? v_engine (vc v)); [|intuition discriminate].
  apply Z.eqb_neq in Hl. rewrite Hl, Hb. cbn [bind Z.eqb negb].
  unfold output_limit_met. destruct d; cbn [flip]; rewrite Z.leb_antisym; destruct (_ <? _); cbn [negb bind]; intuition discriminate.
Qed.
Print Assumptions C17_output_limit.

(* END TO END, at the engine.  The swap that a new-position OpenPosition transaction executes is the
   swap_input of the requested notional carrying the caller's limit unchanged (so by C17_input_limit a
   non-zero limit is honoured: a Buy receives at least it, a Sell gives at most it), and the stored position
   holds exactly the base amount that swap exchanged.  For the whole-position ClosePosition the same is part
   of C04_close_position_tx_pays_equity: the executed swap_output carries the caller's limit. *)
Theorem C17_open_new_position_tx_swap : forall f w t v s m l lim funds w' vm,
  exec_op f w (OEngine t (EOpenPosition v s m l lim) funds) = Ok w' ->
  find_position (w_eng w) v t = None -> get_vamm w v = Ok vm -> 0 < e_dec (ec (w_eng w)) ->
  wf0 (v_total (vs vm)) ->
  let notional := m * l / e_dec (ec (w_eng w)) in
  exists vm' ba, swap_input vm (w_env w) A_ENGINE (side_to_direction s) notional lim false = Ok (vm', (notional, ba)) /\
    0 <= ba /\
    exists p, find_position (w_eng w') v t = Some p /\ toZ (p_size p) = match s with Buy => ba | Sell => - ba end.
Proof. exact open_new_position_tx_swap. Qed.
Print Assumptions C17_open_new_position_tx_swap.

(* END TO END, every non-reversing path.  An OpenPosition that opens, increases or reduces a position (the route the
   code takes: the position is empty or on the same side, or the requested notional is below what the position is
   worth at spot) reaches the vAMM as one swap_input of the requested notional carrying the caller's limit unchanged:
   whenever the transaction succeeds, that limited swap executed on the vAMM state the transaction started from -
   so (C17_input_limit) the limit was met. *)
Theorem C17_open_position_tx_limit : forall f w t v s m l lim funds w' vm pn upnl,
  exec_op f w (OEngine t (EOpenPosition v s m l lim) funds) = Ok w' ->
  get_vamm w v = Ok vm ->
  let p := get_position (w_eng w) (w_env w) v t s in
  let N := m * l / e_dec (ec (w_eng w)) in
  get_pnl w v p PSpot = Ok (pn, upnl) ->
  is_increase_of p s = true \/ N < pn ->
  exists vm' ba, swap_input vm (w_env w) A_ENGINE (side_to_direction s) N lim false = Ok (vm', (N, ba)).
Proof.
  intros f w t v s m l lim funds w' vm pn upnl. intros H Hvm p N Hpnl Hroute. apply exec_engine_tok in H. destruct H as (tk & w1 & subs & n & He & Hd).
  destruct (open_position_shape _ _ _ _ _ _ _ _ _ _ He) as (pn0 & upnl0 & Hp0 & -> & ->).
  pose proof (eq_trans (eq_sym Hp0) Hpnl) as E. injection E as -> ->.
  cbv zeta in Hd. cbn [w_eng w_env set_tok] in Hd. fold p N (is_increase_of p s) in Hd.
  match type of Hd with dispatched _ ?w1 _ _ _ _ _ =>
    assert (Hd' : exists id, dispatched f w1 0 A_ENGINE [swap_input_msg v s N lim false id] w' n) end.
  { destruct Hroute as [Hi|Hlt]; [rewrite Hi in Hd; eexists; exact Hd|].
    apply Z.ltb_lt in Hlt. rewrite Hlt in Hd. destruct (is_increase_of p s); eexists; exact Hd. }
  destruct Hd' as (id & Hd'). apply dispatched_swap_input in Hd'. destruct Hd' as (vm0 & vm' & ba & _ & _ & Hz & Hsw & _).
  unfold get_vamm in Hvm. cbn [w_vamms set_eng set_tok] in Hz. rewrite Hz in Hvm. injection Hvm as ->. exists vm', ba. exact Hsw.
Qed.
Print Assumptions C17_open_position_tx_limit.
