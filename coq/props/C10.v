(* C10: one account's transaction never alters another trader's position. *)
From MP.Model Require Import Prelude U128 SInt Feed Vamm VammOps Token World Engine Runtime.
From MP.Proofs Require Import Tactics RuntimeFacts HandlerFacts FrameFacts ResidueFacts PendingFacts.

(* an engine transaction by s may write only the position (vamm, s) - or (vamm, trader) for
   Liquidate { trader }.  Every other stored position is exactly as before: same six fields, not
   created, not removed.  (find_position returns the whole record or None.) *)
Theorem C10_engine_tx_frame : forall f w s m funds w' v t,
  exec_op f w (OEngine s m funds) = Ok w' ->
  not_touching m s v t -> e_tmp (w_eng w) = None ->
  find_position (w_eng w') v t = find_position (w_eng w) v t.
Proof. exact exec_engine_frame. Qed.
Print Assumptions C10_engine_tx_frame.

(* transactions sent to any other contract (vAMM, insurance fund, fee pool, feed, token) and block
   advancement never write a position *)
Theorem C10_other_tx_frame : forall f w o w' v t,
  exec_op f w o = Ok w' -> (forall s m fu, o <> OEngine s m fu) -> e_tmp (w_eng w) = None ->
  find_position (w_eng w') v t = find_position (w_eng w) v t.
Proof. intros f w o w' v t. intros H Hne _. rewrite (exec_other_eng _ _ _ _ H Hne). reflexivity. Qed.
Print Assumptions C10_other_tx_frame.

(* the hypothesis `no in-flight record` holds in every reachable state *)
Theorem C10_clean_reachable : forall ops w, clean (w_eng w) -> clean (w_eng (run w ops)).
Proof. exact run_clean. Qed.
Print Assumptions C10_clean_reachable.

(* sub-message dispatch as such never touches a position the in-flight record is not about *)
Theorem C10_dispatch_frame : forall v t p0 fuel f w n sender subs w' n',
  dispatch fuel f w n sender subs = Ok (w', n') -> frame v t p0 w -> frame v t p0 w'.
Proof. intros v t p0 fuel f w n sender subs w' n'. intros H. eapply dispatched_frame, dispatch_dispatched, H. Qed.
Print Assumptions C10_dispatch_frame.
