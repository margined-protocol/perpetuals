(* C18: time-weighted prices stay within the prices actually observed. *)
From Coq Require Import Sorted.
From MP.Model Require Import Prelude U128 SInt Feed Vamm.
From MP.Proofs Require Import Tactics FeedFacts TwapFacts.

(* the vAMM TWAP (reserve price or quoted input/output amount) over any interval lies between
   the lowest and highest value in effect during the window: the snapshots the walk visits, i.e.
   up to and including the first one at or before now - interval, or the whole history if shorter *)
Theorem C18_vamm_twap_bounds : forall v e o interval lo hi r,
  calc_twap v e o interval = Ok r ->
  0 <= interval ->
  (forall s, In s (snaps v) -> s_time s <= now e) ->
  prices_within (v_dec (vc v)) o lo hi (window (now e - interval) (snaps v)) ->
  lo <= r <= hi.
Proof.
  intros v e o interval lo hi r. unfold calc_twap. intros H Hi Ht Hp. destruct (snaps v) as [|cur rest] eqn:Es; [discriminate|].
  inv_bind H. cbn [window] in Hp.
  assert (Hx' : lo <= x <= hi).
  { apply (Hp cur x); [|exact Hx]. destruct (s_time cur <=? now e - interval); left; reflexivity. }
  destruct (Z.eqb_spec interval 0); [inv_ok; exact Hx'|].
  inv_bind H. apply sub64_ok in Hx0. destruct Hx0 as [-> Hle].
  destruct (Z.leb_spec (s_time cur) (now e - interval)) as [Hc|Hc].
  - rewrite orb_true_r in H. inv_ok. exact Hx'.
  - destruct (Z.of_nat (length (cur :: rest)) =? 1); cbn [orb] in H; [inv_ok; exact Hx'|].
    inv_bind H. inv_bind H. apply sub64_ok in Hx0. destruct Hx0 as [-> Hle2]. arith_ok. subst.
    apply (twap_loop_bounds _ _ lo hi _ _ _ _ _ _ _ H); try lia.
    + intros s' p' Hin. apply Hp. right. exact Hin.
    + split; apply Z.mul_le_mono_nonneg_r; lia.
Qed.
Print Assumptions C18_vamm_twap_bounds.

(* ... and equals the spot price when it has not changed *)
Theorem C18_vamm_twap_constant : forall v e o interval p r,
  calc_twap v e o interval = Ok r -> 0 <= interval ->
  (forall s, In s (snaps v) -> s_time s <= now e) ->
  prices_within (v_dec (vc v)) o p p (window (now e - interval) (snaps v)) -> r = p.
Proof.
  intros v e o interval p r H Hi Ht Hp. pose proof (C18_vamm_twap_bounds v e o interval p p r H Hi Ht Hp). lia.
Qed.
Print Assumptions C18_vamm_twap_constant.

(* at most one snapshot per block (strictly decreasing heights from newest to oldest); after any
   reserve update the newest snapshot carries the current block and the final reserves *)
Theorem C18_one_snapshot_per_block : forall sn e q b sn',
  add_reserve_snapshot sn e q b = Ok sn' -> snaps_ok sn ->
  (forall s, In s sn -> s_height s <= height e) ->
  snaps_ok sn' /\ (exists s, hd_error sn' = Some s /\ s_q s = q /\ s_b s = b /\ s_height s = height e) /\
  (forall s, In s sn' -> s_height s <= height e) /\
  (length sn' = length sn \/ length sn' = S (length sn)).
Proof.
  intros sn e q b sn'. unfold add_reserve_snapshot. intros H Hs Hh. destruct sn as [|latest older]; [discriminate|].
  destruct (Z.eqb_spec (s_height latest) (height e)) as [E|E]; inv_ok.
  - split; [|split; [|split]].
    + inversion Hs as [|? ? Hs' Hf]; subst. constructor; [exact Hs'|]. cbn. exact Hf.
    + eexists; split; [reflexivity|]. cbn. auto.
    + intros s [<-|Hin]; cbn; [lia|]. apply Hh. right. exact Hin.
    + left. reflexivity.
  - split; [|split; [|split]].
    + constructor; [exact Hs|]. apply Forall_forall. intros s Hin. cbn.
      assert (Hl : s_height latest <= height e) by (apply Hh; left; reflexivity).
      destruct Hin as [<-|Hin]; [lia|].
      inversion Hs as [|? ? Hs' Hf]; subst. rewrite Forall_forall in Hf. specialize (Hf s Hin). cbn in Hf. lia.
    + eexists; split; [reflexivity|]. cbn. auto.
    + intros s [<-|Hin]; cbn; [lia|]. apply Hh. exact Hin.
    + right. reflexivity.
Qed.
Print Assumptions C18_one_snapshot_per_block.

(* the price feed's TWAP lies between the lowest and highest submitted price overlapping the window *)
Theorem C18_feed_twap_bounds : forall f nowt interval lo hi r,
  rf_twap f nowt interval = Ok r -> 0 <= interval ->
  (forall x, In x (rf_rounds f) -> r_time x <= nowt) ->
  (forall x, In x (match rf_rounds f with
                   | latest :: rest => if r_time latest <? nowt - interval then [latest] else latest :: rwindow (nowt - interval) rest
                   | [] => [] end) -> lo <= r_price x <= hi) ->
  lo <= r <= hi.
Proof.
  intros f nowt interval lo hi r. unfold rf_twap. intros H Hi0 Ht Hp. destruct (Z.eqb_spec interval 0); [discriminate|]. cbn [negb] in H.
  inv_bind H. apply sub64_ok in Hx. destruct Hx as [-> Hle].
  destruct (rf_rounds f) as [|latest rest] eqn:Er; [discriminate|].
  destruct (Z.ltb_spec (r_time latest) (nowt - interval)) as [Hl|Hl]; cbn [orb] in H.
  - inv_ok. apply Hp. left. reflexivity.
  - destruct (Z.of_nat (length (latest :: rest)) =? 1).
    + inv_ok. apply Hp. left. reflexivity.
    + inv_bind H. inv_bind H. apply sub64_ok in Hx. destruct Hx as [-> Hle2]. arith_ok. subst.
      assert (Hlat : lo <= r_price latest <= hi) by (apply Hp; left; reflexivity).
      apply (rf_twap_loop_bounds lo hi _ _ _ _ _ _ _ H); try lia.
      * intros y Hin. apply Hp. right. exact Hin.
      * split; apply Z.mul_le_mono_nonneg_r; lia.
Qed.
Print Assumptions C18_feed_twap_bounds.

(* latest = the last submission, with round id = number of submissions *)
Theorem C18_feed_latest : forall f s p t f', rf_append f s p t = Ok f' ->
  rf_latest f' = (Z.of_nat (length (rf_rounds f)) + 1, p, t) /\ rf_rounds f' = mkRound p t :: rf_rounds f.
Proof.
  intros f s p t f'. unfold rf_append. intros H. minv H. inv_ok. unfold rf_latest. cbn. split; [|reflexivity].
  f_equal. f_equal. lia.
Qed.
Print Assumptions C18_feed_latest.

(* n rounds back, for n below the number of submissions, is exactly the n-th newest submission *)
Theorem C18_feed_previous_exact : forall f n r,
  rf_previous f n = Ok r ->
  0 <= n < Z.of_nat (length (rf_rounds f)) /\
  exists sub, nth_error (rf_rounds f) (Z.to_nat n) = Some sub /\
  r = (Z.of_nat (length (rf_rounds f)) - n, r_price sub, r_time sub).
Proof.
  intros f n r. unfold rf_previous. intros H. minv H. inv_ok. zb. split; [lia|].
  unfold rf_latest. cbn [rf_rounds].
  pose proof (drop_spec (Z.to_nat n) (rf_rounds f)) as Hd.
  destruct (drop (Z.to_nat n) (rf_rounds f)) as [|sub rest]; [lia|]. destruct Hd as [En El].
  exists sub. split; [exact En|]. cbn [length]. f_equal. f_equal. lia.
Qed.
Print Assumptions C18_feed_previous_exact.

(* ... and for n at or beyond the number of submissions nothing is returned *)
Theorem C18_feed_previous_beyond : forall f n, Z.of_nat (length (rf_rounds f)) <= n -> rf_previous f n = Err EGuard.
Proof.
  intros f n H. unfold rf_previous. destruct (Z.ltb_spec n (Z.of_nat (length (rf_rounds f)))); [lia|reflexivity].
Qed.
Print Assumptions C18_feed_previous_beyond.

Example C18_nonvacuous :
  let f := rf_append_list (rf_init 1) [(10, 100); (20, 110); (30, 130)] in
  rf_twap f 140 30 = Ok 23 /\ rf_previous f 2 = Ok (1, 10, 100) /\ rf_previous f 3 = Err EGuard.
Proof. vm_compute. repeat split. Qed.
