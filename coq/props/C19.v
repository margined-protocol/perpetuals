(* C19: signed integers behave like mathematical integers.
   Operands range over every representable encoding: any sign flag (including the raw encoding of
   zero with the flag set, which a struct literal can still write) and any magnitude in [0, 2^128). *)
From Coq Require Import String Ascii.
From MP.Model Require Import Prelude U128 SInt.
From MP.Proofs Require Import Tactics SIntFacts.

(* --- arithmetic agrees with Z; results are representable and canonical (no negative zero) --- *)
Theorem C19_add : forall a b r, wf a -> wf b -> sadd a b = Ok r -> toZ r = toZ a + toZ b /\ wf r /\ canon r.
Proof. exact sadd_toZ. Qed.
Print Assumptions C19_add.

Theorem C19_add_fails_iff_overflow : forall a b, wf a -> wf b ->
  ((exists e, sadd a b = Err e) <-> MAXU <= Z.abs (toZ a + toZ b)).
Proof. exact sadd_err_iff. Qed.
Print Assumptions C19_add_fails_iff_overflow.

Theorem C19_sub : forall a b r, wf a -> wf b -> ssub a b = Ok r -> toZ r = toZ a - toZ b /\ wf r /\ canon r.
Proof. exact ssub_toZ. Qed.
Print Assumptions C19_sub.

Theorem C19_sub_fails_iff_overflow : forall a b, wf a -> wf b ->
  ((exists e, ssub a b = Err e) <-> MAXU <= Z.abs (toZ a - toZ b)).
Proof. exact ssub_err_iff. Qed.
Print Assumptions C19_sub_fails_iff_overflow.

Theorem C19_mul : forall a b r, wf a -> wf b -> smul a b = Ok r -> toZ r = toZ a * toZ b /\ wf r /\ canon r.
Proof. exact smul_toZ. Qed.
Print Assumptions C19_mul.

Theorem C19_mul_fails_iff_overflow : forall a b, wf a -> wf b ->
  ((exists e, smul a b = Err e) <-> MAXU <= Z.abs (toZ a * toZ b)).
Proof. exact smul_err_iff. Qed.
Print Assumptions C19_mul_fails_iff_overflow.

(* truncating division: Z.quot rounds toward zero *)
Theorem C19_div : forall a b r, wf a -> wf b -> sdiv a b = Ok r -> toZ r = Z.quot (toZ a) (toZ b) /\ wf r /\ canon r.
Proof. exact sdiv_toZ. Qed.
Print Assumptions C19_div.

Theorem C19_div_fails_iff_zero_divisor : forall a b, (exists e, sdiv a b = Err e) <-> toZ b = 0.
Proof. exact sdiv_err_iff. Qed.
Print Assumptions C19_div_fails_iff_zero_divisor.

Theorem C19_neg : forall a, toZ (sinvert a) = - toZ a.
Proof. exact sinvert_toZ. Qed.
Print Assumptions C19_neg.

Theorem C19_neg_canonical : forall a, canon (sinvert a).
Proof. intros a. unfold canon, sinvert; destruct a as [v []]; cbn; destruct (Z.eqb_spec v 0); cbn; congruence. Qed.
Print Assumptions C19_neg_canonical.

Theorem C19_abs : forall a, wf a -> toZ (sabs a) = Z.abs (toZ a).
Proof. intros a H. exact (wf0_toZ_abs a (wf_wf0 a H)). Qed.
Print Assumptions C19_abs.

(* --- checked forms --- *)
Theorem C19_checked_add : forall a b r, wf a -> wf b -> schecked_add a b = Ok r -> toZ r = toZ a + toZ b /\ wf r /\ canon r.
Proof. intros a b r. rewrite schecked_add_eq. apply sadd_toZ. Qed.
Print Assumptions C19_checked_add.

Theorem C19_checked_add_fails_iff_overflow : forall a b, wf a -> wf b ->
  ((exists e, schecked_add a b = Err e) <-> MAXU <= Z.abs (toZ a + toZ b)).
Proof. intros a b. rewrite schecked_add_eq. apply sadd_err_iff. Qed.
Print Assumptions C19_checked_add_fails_iff_overflow.

Theorem C19_checked_sub : forall a b r, wf a -> wf b -> schecked_sub a b = Ok r -> toZ r = toZ a - toZ b /\ wf r /\ canon r.
Proof.
  intros a b r Ha Hb H. apply (ok_wf _ _ _ (schecked_sub_err_iff a b Ha Hb) H), schecked_sub_toZ0; auto using wf_wf0.
Qed.
Print Assumptions C19_checked_sub.

Theorem C19_checked_sub_fails_iff_overflow : forall a b, wf a -> wf b ->
  ((exists e, schecked_sub a b = Err e) <-> MAXU <= Z.abs (toZ a - toZ b)).
Proof. exact schecked_sub_err_iff. Qed.
Print Assumptions C19_checked_sub_fails_iff_overflow.

(* checked and unchecked forms return the very same value whenever the checked form succeeds *)
Theorem C19_checked_add_agrees : forall a b r, wf a -> wf b -> schecked_add a b = Ok r -> sadd a b = Ok r.
Proof. intros a b r. rewrite schecked_add_eq. auto. Qed.
Print Assumptions C19_checked_add_agrees.

Theorem C19_checked_sub_agrees : forall a b r, wf a -> wf b -> schecked_sub a b = Ok r -> ssub a b = Ok r.
Proof.
  (* both fail on the same operands, and a canonical result is determined by its value *)
  intros a b r Ha Hb H. destruct (ssub a b) as [r'|e] eqn:E.
  - apply ssub_toZ0 in E; auto using wf_wf0. apply schecked_sub_toZ0 in H; auto using wf_wf0.
    f_equal. apply canon_toZ_eq; intuition congruence.
  - assert (Hx : exists e, schecked_sub a b = Err e)
      by (apply schecked_sub_err_iff, ssub_err_iff; eauto).
    destruct Hx; congruence.
Qed.
Print Assumptions C19_checked_sub_agrees.

Theorem C19_checked_mul_agrees : forall a b, schecked_mul a b = smul a b.
Proof. exact schecked_mul_eq. Qed.
Print Assumptions C19_checked_mul_agrees.

Theorem C19_checked_div_agrees : forall a b, schecked_div a b = sdiv a b.
Proof. exact schecked_div_eq. Qed.
Print Assumptions C19_checked_div_agrees.

(* --- comparison, equality, sign predicates: the type's own Ord / == / is_negative --- *)
Theorem C19_cmp : forall a b, wf a -> wf b -> scmp a b = (toZ a ?= toZ b).
Proof. intros a b. auto using scmp_toZ0, wf_wf0. Qed.
Print Assumptions C19_cmp.

Theorem C19_eq : forall a b, wf a -> wf b -> seqb a b = (toZ a =? toZ b).
Proof.
  intros a b Ha%wf_wf0 Hb%wf_wf0. unfold seqb.
  rewrite !s_is_negative_toZ0, (wf0_toZ_abs a), (wf0_toZ_abs b) by auto.
  destruct (Z.ltb_spec (toZ a) 0), (Z.ltb_spec (toZ b) 0),
    (Z.eqb_spec (Z.abs (toZ a)) (Z.abs (toZ b))), (Z.eqb_spec (toZ a) (toZ b)); cbn; lia.
Qed.
Print Assumptions C19_eq.

Theorem C19_is_negative : forall a, wf a -> s_is_negative a = (toZ a <? 0).
Proof. intros a H. apply s_is_negative_toZ0, wf_wf0, H. Qed.
Print Assumptions C19_is_negative.

Theorem C19_is_positive : forall a, wf a -> s_is_positive a = (0 <=? toZ a).
Proof. intros a H. unfold s_is_positive. rewrite C19_is_negative by exact H. symmetry. apply Z.leb_antisym. Qed.
Print Assumptions C19_is_positive.

Theorem C19_is_zero : forall a, s_is_zero a = (toZ a =? 0).
Proof. exact s_is_zero_toZ. Qed.
Print Assumptions C19_is_zero.

(* --- decimal string form --- *)
Theorem C19_zero_prints_as_0 : forall a, toZ a = 0 -> s_to_string a = "0"%string.
Proof.
  intros a H. assert (E : sval a = 0) by (unfold toZ in H; destruct (sneg a); lia).
  unfold s_to_string. rewrite E. rewrite andb_false_r. reflexivity.
Qed.
Print Assumptions C19_zero_prints_as_0.

Theorem C19_string_form : forall a, wf a ->
  s_to_string a = if toZ a <? 0 then String "-"%char (dec_string (Z.abs (toZ a))) else dec_string (toZ a).
Proof.
  intros a Ha%wf_wf0.
  change (s_to_string a)
    with (if s_is_negative a then String "-"%char (dec_string (sval a)) else dec_string (sval a)).
  rewrite s_is_negative_toZ0, (wf0_toZ_abs a) by exact Ha.
  destruct (Z.ltb_spec (toZ a) 0); [|rewrite Z.abs_eq by lia]; reflexivity.
Qed.
Print Assumptions C19_string_form.

Theorem C19_parse_print : forall a, wf a -> exists r, s_from_str (s_to_string a) = Ok r /\ seqb r a = true.
Proof.
  intros a Ha. exists (s_store a). split; [apply from_str_to_string_store, Ha|].
  unfold s_store. destruct (Z.eqb_spec (sval a) 0) as [E|E]; [|apply seqb_refl].
  unfold seqb, s_is_negative. cbn [szero sval sneg andb]. rewrite E, andb_false_r. reflexivity.
Qed.
Print Assumptions C19_parse_print.

(* --- non-vacuity: the hypotheses are met by the interesting operands --- *)
Example C19_nonvacuous :
  wf (sraw 5 true) /\ wf (sraw 0 true) /\ wf (spos (2 ^ 128 - 1)) /\
  sadd (sraw 5 true) (spos 5) = Ok szero /\
  smul (sraw 5 true) (spos 0) = Ok szero /\
  sdiv (sraw 3 true) (spos 5) = Ok szero /\
  seqb (sraw 0 true) szero = true /\ sltb (sraw 0 true) szero = false /\
  s_from_str "-0"%string = Ok szero /\
  (exists e, sadd (spos (2 ^ 128 - 1)) (spos 1) = Err e).
Proof. unfold wf. repeat split; try (vm_compute; congruence); try reflexivity. eexists; reflexivity. Qed.
