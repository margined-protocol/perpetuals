(* C12: trading fees are exact and routed to the right pools. *)
From MP.Model Require Import Prelude U128 SInt Feed Vamm VammOps Token World Engine Runtime.
From MP.Proofs Require Import Tactics HandlerFacts MirrorFacts EngineArith CloseFacts MoreFacts FlowFacts CloseTxFacts
 PartiesFacts FeeFlowFacts OpenTxFacts.
From MP.Model Require Import Scenario.

Theorem C12_fee_amounts : forall v quote toll spread, 0 <= quote ->
  q_calc_fee v quote = Ok (toll, spread) ->
  toll = quote * v_toll (vc v) / v_dec (vc v) /\ spread = quote * v_spread (vc v) / v_dec (vc v).
Proof. intros; eapply q_calc_fee_spec; eauto. Qed.
Print Assumptions C12_fee_amounts.

(* exactly one transfer of floor(notional x spread) to the insurance fund and one of
   floor(notional x toll) to the fee pool, each omitted when it rounds to zero *)
Theorem C12_fee_messages : forall w from vamm notional msgs spread toll, 0 <= notional ->
  transfer_fees w from vamm notional = Ok (msgs, spread, toll) ->
  exists v, get_vamm w vamm = Ok v /\
  toll = notional * v_toll (vc v) / v_dec (vc v) /\ spread = notional * v_spread (vc v) / v_dec (vc v) /\
  msgs = (if negb (spread =? 0) then [execute_transfer_from w from (e_ifund (ec (w_eng w))) spread] else []) ++
         (if negb (toll =? 0) then [execute_transfer_from w from (e_feepool (ec (w_eng w))) toll] else []).
Proof. intros; eapply transfer_fees_spec; eauto. Qed.
Print Assumptions C12_fee_messages.

(* nobody other than the insurance fund and the fee pool is paid by the fee messages *)
Theorem C12_fees_only_to_pools : forall w from vamm notional msgs spread toll a,
  transfer_fees w from vamm notional = Ok (msgs, spread, toll) ->
  a <> e_ifund (ec (w_eng w)) -> a <> e_feepool (ec (w_eng w)) -> transfers_to a msgs = 0.
Proof. exact transfers_to_fees. Qed.
Print Assumptions C12_fees_only_to_pools.

(* OpenPosition records margin x leverage / D - the quote amount requested to trade - as the notional the
   fee will be charged on, and marks the fee as not yet paid *)
Theorem C12_open_records_notional : forall w t v s m l lim f w' subs,
  e_open_position w t v s m l lim f = Ok (w', subs) ->
  exists tm, e_tmp (w_eng w') = Some tm /\ ts_vamm tm = v /\ ts_trader tm = t /\ ts_side tm = s /\
    ts_open_notional tm = m * l / e_dec (ec (w_eng w)) /\ ts_leverage tm = l /\ ts_margin_amount tm = m /\
    ts_fees_paid tm = false /\ ts_mtv tm = szero.
Proof. exact open_position_tmp. Qed.
Print Assumptions C12_open_records_notional.

(* the increase / reduce reply charges the fee on exactly that notional, as its last messages, unless a
   reversal's first leg already charged it - then it emits no fee message at all *)
Theorem C12_trade_fee_once : forall w i o id w' subs tm,
  update_position_reply w i o id = Ok (w', subs) -> e_tmp (w_eng w) = Some tm ->
  exists msgs1,
    (ts_fees_paid tm = true -> subs = msgs1 ++ []) /\
    (ts_fees_paid tm = false -> exists w1 fmsgs spread toll,
        w_vamms w1 = w_vamms w /\ ec (w_eng w1) = ec (w_eng w) /\ w_tok w1 = w_tok w /\
        transfer_fees w1 (ts_trader tm) (ts_vamm tm) (ts_open_notional tm) = Ok (fmsgs, spread, toll) /\
        subs = msgs1 ++ fmsgs).
Proof.
  intros w i o id w' subs tm. intros H Htmp. unfold update_position_reply, need_tmp in H. rewrite Htmp in H. cbn [bind] in H.
  arm H. match goal with Hr : (if negb (ts_fees_paid tm) then _ else _) = Ok _ |- _ => rename Hr into Hf end.
  eexists; split; intros Hfp; rewrite Hfp in Hf; cbn [negb] in Hf; arm Hf; [reflexivity|].
  eexists (set_eng w _), _, _, _. split; [reflexivity|split; [reflexivity|split; [reflexivity|split; [eassumption|reflexivity]]]].
Qed.
Print Assumptions C12_trade_fee_once.

(* a reversal charges once, on the requested notional, in its first leg, and hands the re-opening leg a
   record marked as paid *)
Theorem C12_reversal_fee_once : forall w i o w' subs tm,
  reverse_position_reply w i o = Ok (w', subs) -> e_tmp (w_eng w) = Some tm ->
  exists fmsgs spread toll last,
    transfer_fees w (ts_trader tm) (ts_vamm tm) (ts_open_notional tm) = Ok (fmsgs, spread, toll) /\
    subs = fmsgs ++ [last] /\
    ((exists amt, last = execute_transfer (ts_trader tm) amt) /\ e_tmp (w_eng w') = None \/
     (exists tm', e_tmp (w_eng w') = Some tm' /\ ts_fees_paid tm' = true /\
        last = internal_increase_position (ts_vamm tm) (ts_side tm) (ts_open_notional tm') 0)).
Proof.
  intros w i o w' subs tm. intros H Htmp. destruct (reverse_position_reply_spec _ _ _ _ _ _ H Htmp) as (st1 & fp & mg & bad & lat & fmsgs & spread & toll & x & _ & _ & Hf & _ & Hl).
  exists fmsgs, spread, toll. destruct Hl as [[-> ->]|(q & sent & _ & -> & ->)]; eexists; (split; [exact Hf|]); (split; [reflexivity|]); [left; eauto|right; eexists; repeat split].
Qed.
Print Assumptions C12_reversal_fee_once.

(* deposits, withdrawals, funding settlements and liquidations move nothing to the fee pool *)
Theorem C12_deposit_no_fee : forall w t v amount funds w' msgs,
  e_deposit_margin w t v amount funds = Ok (w', msgs) -> e_feepool (ec (w_eng w)) <> A_ENGINE ->
  paid_to (e_feepool (ec (w_eng w))) msgs = 0.
Proof.
  intros w t v amount funds w' msgs. intros H Hn. apply deposit_margin_spec in H. destruct H as (p & _ & _ & _ & _ & Hm).
  destruct (t_native (w_tok w)).
  - destruct Hm as [_ ->]. reflexivity.
  - subst msgs. unfold execute_transfer_from. destruct (t_native (w_tok w)); cbn [paid_to sm_msg]; destr_if; lia.
Qed.
Print Assumptions C12_deposit_no_fee.
Theorem C12_withdraw_no_fee : forall w t v amount w' msgs,
  e_withdraw_margin w t v amount = Ok (w', msgs) -> t <> e_feepool (ec (w_eng w)) ->
  paid_to (e_feepool (ec (w_eng w))) msgs = 0.
Proof.
  intros w t v amount w' msgs. unfold e_withdraw_margin. intros H Hn. arm H.
  match goal with Hw : withdraw _ _ _ _ _ = Ok _ |- _ => apply (paid_to_withdraw _ _ _ _ _ _ _ _ Hw Hn) end.
Qed.
Print Assumptions C12_withdraw_no_fee.
Theorem C12_funding_no_fee : forall w pf vamm w' msgs,
  pay_funding_reply w pf vamm = Ok (w', msgs) -> e_ifund (ec (w_eng w)) <> e_feepool (ec (w_eng w)) ->
  paid_to (e_feepool (ec (w_eng w))) msgs = 0.
Proof.
  intros w pf vamm w' msgs. unfold pay_funding_reply. intros H Hn. arm H.
  match goal with Ha : append_cumulative_premium_fraction _ _ _ = Ok _ |- _ => apply append_cpf_vmap in Ha; destruct Ha as [m ->] end.
  destruct (_ && _); [reflexivity|]. destruct (_ && _); [|reflexivity]. apply paid_to_transfer, Hn.
Qed.
Print Assumptions C12_funding_no_fee.
Theorem C12_liquidation_no_fee : forall w i o w' msgs liq,
  liquidate_reply w i o = Ok (w', msgs) -> e_liq (w_eng w) = Some liq ->
  liq <> e_feepool (ec (w_eng w)) -> e_ifund (ec (w_eng w)) <> e_feepool (ec (w_eng w)) ->
  paid_to (e_feepool (ec (w_eng w))) msgs = 0.
Proof.
  intros w i o w' msgs liq. intros H Hl Hn Hi. unfold liquidate_reply, need_liq in H. rewrite Hl in H. arm H.
  (* a draw on the fund for the bad debt, the margin left to the fund, the fee to the liquidator *)
  rewrite !paid_to_app.
  match goal with |- paid_to ?a ?m0 + (_ + paid_to ?a ?m2) = 0 =>
    assert (H0 : paid_to a m0 = 0) by (defn m0; [eapply paid_to_realize; eassumption|reflexivity]);
    assert (H2 : paid_to a m2 = 0) by (defn m2; [eapply paid_to_withdraw; eassumption|reflexivity]);
    rewrite H0, H2 end.
  destr_if; [rewrite paid_to_transfer by exact Hi|]; reflexivity.
Qed.
Print Assumptions C12_liquidation_no_fee.
Theorem C12_partial_liquidation_no_fee : forall w i o w' msgs liq,
  partial_liquidation_reply w i o = Ok (w', msgs) -> e_liq (w_eng w) = Some liq ->
  liq <> e_feepool (ec (w_eng w)) -> e_ifund (ec (w_eng w)) <> e_feepool (ec (w_eng w)) ->
  paid_to (e_feepool (ec (w_eng w))) msgs = 0.
Proof.
  intros w i o w' msgs liq. intros H Hl Hn Hi. unfold partial_liquidation_reply, need_liq in H. rewrite Hl in H. arm H.
  match goal with |- paid_to _ ?m = 0 => defn m end; [|reflexivity].
  rewrite paid_to_transfer by exact Hi. eapply paid_to_withdraw; eassumption.
Qed.
Print Assumptions C12_partial_liquidation_no_fee.

(* END TO END.  An OpenPosition transaction that opens a new position (cw20 or native; whole message tree;
   any fault index) raises the insurance fund's balance by exactly floor(notional x spread ratio) and the fee
   pool's by exactly floor(notional x toll ratio), notional = margin x leverage / D. *)
Theorem C12_open_new_position_tx_fees : forall f w t v s m l lim funds w' vm,
  exec_op f w (OEngine t (EOpenPosition v s m l lim) funds) = Ok w' ->
  find_position (w_eng w) v t = None ->
  get_vamm w v = Ok vm -> 0 <= m -> 0 <= l -> 0 < e_dec (ec (w_eng w)) ->
  let ifund := e_ifund (ec (w_eng w)) in let pool := e_feepool (ec (w_eng w)) in
  ifund <> pool -> ifund <> A_ENGINE -> pool <> A_ENGINE -> t <> ifund -> t <> pool ->
  let notional := m * l / e_dec (ec (w_eng w)) in
  bal (w_tok w') ifund = bal (w_tok w) ifund + fee_of vm notional (v_spread (vc vm)) /\
  bal (w_tok w') pool = bal (w_tok w) pool + fee_of vm notional (v_toll (vc vm)).
Proof. exact open_new_position_tx_fees. Qed.
Print Assumptions C12_open_new_position_tx_fees.

(* non-vacuity: in the concrete scenario with fees switched on (toll 0.3%, spread 0.1%) a third trader's
   OpenPosition succeeds, every premise holds and both pools grow *)
Definition c12_example : bool :=
  match scenario with
  | Ok w0 =>
      let w := run w0 [OVamm 1 11 (WUpdateConfig (mkVupdate None None (Some 3000) (Some 1000) None None None None None));
                       OToken 1 (TMint 23 1000000000000); OToken 23 (TIncreaseAllowance 1000000000000)] in
      let ifund := e_ifund (ec (w_eng w)) in let pool := e_feepool (ec (w_eng w)) in
      match find_position (w_eng w) 11 23, exec_op (-1) w (OEngine 23 (EOpenPosition 11 Buy 3000000 2000000 0) 0) with
      | None, Ok w' =>
          negb (ifund =? pool) && negb (ifund =? A_ENGINE) && negb (pool =? A_ENGINE) && negb (23 =? ifund) && negb (23 =? pool) &&
          (bal (w_tok w) ifund <? bal (w_tok w') ifund) && (bal (w_tok w) pool <? bal (w_tok w') pool)
      | _, _ => false
      end
  | Err _ => false
  end.
Example C12_nonvacuous : c12_example = true.
Proof. vm_compute. reflexivity. Qed.

(* END TO END, close.  A ClosePosition transaction that closes the whole position raises the fee pool's
   balance by exactly floor(open notional x toll ratio): the close fee is charged on the position's open
   notional, whatever the payout (the trader's side, including the spread fee, is C04's end-to-end theorem). *)
Theorem C12_close_position_tx_pool : forall f w t v lim funds w',
  exec_op f w (OEngine t (EClosePosition v lim) funds) = Ok w' ->
  let p := read_position (w_eng w) v t in
  pos_wf p -> cpf_wf (w_eng w) v -> 0 < e_dec (ec (w_eng w)) ->
  t <> A_ENGINE -> t <> A_IFUND -> t <> if_engine (w_if w) ->
  t <> e_ifund (ec (w_eng w)) -> t <> e_feepool (ec (w_eng w)) ->
  find_position (w_eng w') v t = None ->
  let pool := e_feepool (ec (w_eng w)) in
  pool <> A_ENGINE -> pool <> A_IFUND -> pool <> if_engine (w_if w) -> pool <> e_ifund (ec (w_eng w)) ->
  exists vm, get_vamm w v = Ok vm /\
    bal (w_tok w') pool = bal (w_tok w) pool + fee_of vm (p_notional p) (v_toll (vc vm)).
Proof.
  intros f w t v lim funds w'. intros H p _ _ _ Ht1 Ht2 Ht3 Ht4 Ht5 Hnone pool Hq1 Hq2 Hq3 Hq4.
  destruct (close_position_tx_whole _ _ _ _ _ _ _ H Hnone)
    as (tk & vm & vm' & o & wr & wm & fm & Hbal & Hvm & _ & _ & _ & _ & Hnp & Hwm & _ & Hfm & Hflow).
  fold p in Hfm. cbv zeta in Hfm. exists vm. split; [exact Hvm|].
  (* the payout goes to the trader; of the fee messages the pool receives the toll *)
  assert (Hpt : pool <> t) by (intros E; exact (Ht5 (eq_sym E))).
  rewrite Hflow, flow_app, Hfm, flow_no_pulls, Hwm, Hbal by assumption. fold pool.
  rewrite ind_other by assumption. unfold ind. rewrite Z.eqb_refl.
  destruct (Z.eqb_spec pool A_ENGINE) as [|_]; [contradiction|]. destruct (Z.eqb_spec pool t) as [|_]; [contradiction|].
  destruct (Z.eqb_spec pool (e_ifund (ec (w_eng w)))) as [|_]; [contradiction|lia].
Qed.
Print Assumptions C12_close_position_tx_pool.

(* END TO END, every path.  Any successful OpenPosition - on no position, increasing, reducing, reversing with or
   without a re-opening leg - raises the fee pool's balance by exactly floor(notional x toll ratio), notional =
   margin x leverage: the reversal is charged once on the requested notional, not once per leg.  (Proved through
   the whole message tree with a "what is still owed" potential: leaf messages pay what they say, the pending
   replying swap is worth what its reply will pay; engine_tx_owed, through dispatched_owed.) *)
Theorem C12_open_position_tx_toll : forall f w t v s m l lim funds w' vm,
  exec_op f w (OEngine t (EOpenPosition v s m l lim) funds) = Ok w' ->
  get_vamm w v = Ok vm -> 0 <= m -> 0 <= l -> 0 < e_dec (ec (w_eng w)) ->
  let pool := e_feepool (ec (w_eng w)) in
  pool <> A_ENGINE -> pool <> A_IFUND -> pool <> if_engine (w_if w) -> e_ifund (ec (w_eng w)) <> pool -> t <> pool ->
  bal (w_tok w') pool = bal (w_tok w) pool + (m * l / e_dec (ec (w_eng w))) * v_toll (vc vm) / v_dec (vc vm).
Proof. intros; eapply open_position_tx_toll; eauto. Qed.
Print Assumptions C12_open_position_tx_toll.

(* non-vacuity on the reversal path: with a 0.3% toll, trader 21 (long) sells more than the position is worth; the
   transaction succeeds, the position flips, and the fee pool receives the toll on the requested notional once *)
Definition c12_reversal_example : bool :=
  match scenario with
  | Ok w0 =>
      let w := run w0 [OVamm 1 11 (WUpdateConfig (mkVupdate None None (Some 3000) (Some 1000) None None None None None))] in
      let pool := e_feepool (ec (w_eng w)) in
      match find_position (w_eng w) 11 21, get_vamm w 11, exec_op (-1) w (OEngine 21 (EOpenPosition 11 Sell 11000000 2000000 0) 0) with
      | Some p, Ok vm, Ok w' =>
          match find_position (w_eng w') 11 21 with
          | Some p' => negb (sneg (p_size p)) && sneg (p_size p') && negb (sval (p_size p') =? 0) &&
                       (bal (w_tok w') pool =? bal (w_tok w) pool + (11000000 * 2000000 / e_dec (ec (w_eng w))) * 3000 / v_dec (vc vm)) &&
                       (0 <? (11000000 * 2000000 / e_dec (ec (w_eng w))) * 3000 / v_dec (vc vm))
          | None => false
          end
      | _, _, _ => false
      end
  | Err _ => false
  end.
Example C12_reversal_toll_once_example : c12_reversal_example = true.
Proof. vm_compute. reflexivity. Qed.

(* END TO END: liquidations (full or partial), funding settlements, deposits and withdrawals leave the fee pool's
   balance exactly as it was - whole transactions, through the message tree *)
Theorem C12_liquidate_tx_no_fee : forall f w s v t lim funds w',
  exec_op f w (OEngine s (ELiquidate v t lim) funds) = Ok w' ->
  let pool := e_feepool (ec (w_eng w)) in
  pool <> A_ENGINE -> pool <> A_IFUND -> pool <> if_engine (w_if w) -> e_ifund (ec (w_eng w)) <> pool -> s <> pool ->
  bal (w_tok w') pool = bal (w_tok w) pool.
Proof.
  intros f w s v t lim funds w'. intros H pool P1 P2 P3 P4 P5. apply (engine_tx_no_fee _ _ _ _ _ _ H P1 P2 P3 P5).
  intros w0 w1 subs E0 Eo. cbn [engine_execute] in Eo. unfold e_liquidate, internal_close_position in Eo.
  arm Eo; [match goal with Hp : partial_liquidation _ _ _ _ = Ok _ |- _ => unfold partial_liquidation in Hp; arm Hp end|].
  (* either way one swap is pending, and the liquidator on record is the caller *)
  all: apply owed_swap; [reflexivity|]; unfold pend_zero; cbn [w_eng set_eng ec e_liq eng_set_tmp eng_set_liq]; rewrite E0;
       repeat split; auto; intros l [= <-]; exact P5.
Qed.
Print Assumptions C12_liquidate_tx_no_fee.

Theorem C12_pay_funding_tx_no_fee : forall f w s v funds w',
  exec_op f w (OEngine s (EPayFunding v) funds) = Ok w' ->
  let pool := e_feepool (ec (w_eng w)) in
  pool <> A_ENGINE -> pool <> A_IFUND -> pool <> if_engine (w_if w) -> e_ifund (ec (w_eng w)) <> pool -> s <> pool ->
  (forall l, e_liq (w_eng w) = Some l -> l <> pool) ->
  bal (w_tok w') pool = bal (w_tok w) pool.
Proof.
  intros f w s v funds w'. intros H pool P1 P2 P3 P4 P5 P6. apply (engine_tx_no_fee _ _ _ _ _ _ H P1 P2 P3 P5).
  intros w0 w1 subs E0 Eo. cbn [engine_execute] in Eo. unfold e_pay_funding in Eo. arm Eo.
  apply owed_swap; [reflexivity|]. unfold pend_zero. rewrite E0. repeat split; auto.
Qed.
Print Assumptions C12_pay_funding_tx_no_fee.

Theorem C12_deposit_margin_tx_no_fee : forall f w t v amount funds w',
  exec_op f w (OEngine t (EDepositMargin v amount) funds) = Ok w' ->
  let pool := e_feepool (ec (w_eng w)) in
  pool <> A_ENGINE -> pool <> A_IFUND -> pool <> if_engine (w_if w) -> t <> pool ->
  bal (w_tok w') pool = bal (w_tok w) pool.
Proof.
  intros f w t v amount funds w'. intros H pool P1 P2 P3 P5. apply (engine_tx_no_fee _ _ _ _ _ _ H P1 P2 P3 P5).
  intros w0 w1 subs _ Eo. cbn [engine_execute] in Eo.
  destruct (deposit_margin_spec _ _ _ _ _ _ _ Eo) as (p & _ & _ & _ & _ & Hm).
  destruct (t_native (w_tok w0)); [destruct Hm as [_ ->]; exact eq_refl|subst subs].
  apply owed_avoids; (apply Forall_cons; [|apply Forall_nil]); [apply noreply_leafy_transfer_from|exact (avoids_transfer_from _ _ _ _ _ P5 (not_eq_sym P1))].
Qed.
Print Assumptions C12_deposit_margin_tx_no_fee.

Theorem C12_withdraw_margin_tx_no_fee : forall f w t v amount funds w',
  exec_op f w (OEngine t (EWithdrawMargin v amount) funds) = Ok w' ->
  let pool := e_feepool (ec (w_eng w)) in
  pool <> A_ENGINE -> pool <> A_IFUND -> pool <> if_engine (w_if w) -> t <> pool ->
  bal (w_tok w') pool = bal (w_tok w) pool.
Proof.
  intros f w t v amount funds w'. intros H pool P1 P2 P3 P5. apply (engine_tx_no_fee _ _ _ _ _ _ H P1 P2 P3 P5).
  intros w0 w1 subs E0 Eo. cbn [engine_execute] in Eo. unfold e_withdraw_margin in Eo. arm Eo.
  apply owed_avoids; [leafy_goal|avoid_goal].
Qed.
Print Assumptions C12_withdraw_margin_tx_no_fee.
