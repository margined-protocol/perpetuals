(* C01: vAMM curve conservation. *)
From MP.Model Require Import Prelude U128 SInt Feed Vamm VammOps.
From MP.Proofs Require Import Tactics SIntFacts VammFacts.

(* an accepted swap_input: the scaled product floor(q*b/D) does not decrease, base + net is
   unchanged, and exactly the requested quote amount moves *)
Theorem C01_swap_input : forall v e s d quote lim cgo v' qa ba,
  wfv v -> 0 <= quote ->
  swap_input v e s d quote lim cgo = Ok (v', (qa, ba)) ->
  wfv v' /\ kof v <= kof v' /\ base_plus_net v' = base_plus_net v /\ vc v' = vc v /\
  qa = quote /\ 0 <= ba /\
  match d with
  | AddToAmm => v_q (vs v') = v_q (vs v) + quote /\ v_b (vs v') = v_b (vs v) - ba
  | RemoveFromAmm => v_q (vs v') = v_q (vs v) - quote /\ v_b (vs v') = v_b (vs v) + ba
  end.
Proof. exact swap_input_c01. Qed.
Print Assumptions C01_swap_input.

Theorem C01_swap_output : forall v e s d base lim v' qa ba,
  wfv v -> 0 <= base ->
  swap_output v e s d base lim = Ok (v', (qa, ba)) ->
  wfv v' /\ kof v <= kof v' /\ base_plus_net v' = base_plus_net v /\ vc v' = vc v /\
  ba = base /\ 0 <= qa /\
  match d with
  | AddToAmm => v_q (vs v') = v_q (vs v) - qa /\ v_b (vs v') = v_b (vs v) + base
  | RemoveFromAmm => v_q (vs v') = v_q (vs v) + qa /\ v_b (vs v') = v_b (vs v) - base
  end.
Proof. exact swap_output_c01. Qed.
Print Assumptions C01_swap_output.

(* every operation of the vAMM, accepted or rejected *)
Theorem C01_step : forall v o, wfv v -> vop_wf o -> c01_rel v (vstep v o).
Proof. exact vstep_c01. Qed.
Print Assumptions C01_step.

(* between any two points of any history of vAMM operations (swaps of both kinds interleaved
   with funding settlements, open/close, configuration and ownership changes) *)
Theorem C01_history : forall v ops1 ops2,
  wfv v -> Forall vop_wf (ops1 ++ ops2) ->
  c01_rel (vrun v ops1) (vrun v (ops1 ++ ops2)).
Proof.
  intros v ops1 ops2 Hw Hf. rewrite vrun_app. apply Forall_app in Hf. destruct Hf as [F1 F2].
  apply vrun_c01; auto. apply (vrun_c01 ops1 v Hw F1).
Qed.
Print Assumptions C01_history.

(* a freshly instantiated vAMM satisfies the invariant, with base + net = the initial base reserve
   and both reserves at least one whole unit *)
Theorem C01_initial : forall e s m v, vamm_instantiate e s m = Ok v ->
  wfv v /\ base_plus_net v = i_b m /\ v_dec (vc v) <= v_b (vs v) /\ v_dec (vc v) <= v_q (vs v) /\
  v_q (vs v) = i_q m /\ v_b (vs v) = i_b m.
Proof.
  intros e s m v. unfold vamm_instantiate, validate_decimal_places, validate_ratio, validate_non_fraction.
  intros H. repeat (inv_bind H).
  repeat match goal with H : (if ?b then _ else _) = Ok _ |- _ => destruct b eqn:?; [|discriminate] end.
  inv_ok. zb. cbn.
  assert (0 < 10 ^ i_decimals m) by (apply Z.pow_pos_nonneg; lia).
  unfold wfv, base_plus_net, wf0; cbn. intuition lia.
Qed.
Print Assumptions C01_initial.

(* consequence: whenever the net position returns to an earlier value (with at least one whole
   unit of base in the pool then), the quote reserve is at least what it was *)
Theorem C01_quote_on_return : forall v1 v2,
  c01_rel v1 v2 -> wfv v1 ->
  toZ (v_total (vs v2)) = toZ (v_total (vs v1)) ->
  v_dec (vc v1) <= v_b (vs v1) ->
  v_q (vs v1) <= v_q (vs v2).
Proof.
  intros v1 v2. unfold c01_rel, kof, kfloor, base_plus_net, wfv.
  intros (W2 & D & K & B) W1 T Hb. rewrite D in K.
  assert (Eb : v_b (vs v2) = v_b (vs v1)) by lia. rewrite Eb in K.
  set (q1 := v_q (vs v1)) in *. set (q2 := v_q (vs v2)) in *. set (b := v_b (vs v1)) in *.
  set (dec := v_dec (vc v1)) in *.
  destruct (Z_le_gt_dec q1 q2) as [|Hgt]; auto. exfalso.
  assert (H1 : q2 * b + dec <= q1 * b) by nia.
  assert (H2 : q2 * b / dec + 1 <= q1 * b / dec).
  { replace (q2 * b / dec + 1) with ((q2 * b + 1 * dec) / dec) by (rewrite Z.div_add by lia; lia).
    apply Z.div_le_mono; lia. }
  lia.
Qed.
Print Assumptions C01_quote_on_return.

(* non-vacuity: a concrete accepted swap leaving a non-zero division remainder; the scaled
   product strictly grows (rounding resolved in the curve's favour) *)
Definition c01_example : bool :=
  let e := mkEnv 100 10 in
  match vamm_instantiate e 1 (mkVinit 6 9 (Some 2) (Some 3) 1000000007 100000003 86400 0 0 0) with
  | Ok v =>
      match set_open v e 1 true with
      | Ok v1 =>
          match swap_input v1 e 2 AddToAmm 33333333 0 false with
          | Ok (v2, (qa, ba)) => (kof v1 <? kof v2) && (0 <? ba) && (qa =? 33333333)
          | Err _ => false
          end
      | Err _ => false
      end
  | Err _ => false
  end.
Example C01_nonvacuous : c01_example = true.
Proof. vm_compute. reflexivity. Qed.
