(* C16: restriction mode after a liquidation. *)
From MP.Model Require Import Prelude U128 SInt Feed Vamm VammOps Token World Engine Runtime.
From MP.Proofs Require Import Tactics RuntimeFacts HandlerFacts FrameFacts EngineGuards MoreFacts PendingFacts
 BandFacts LrbFacts.
From MP.Model Require Import Scenario.

Theorem C16_guard_blocks : forall w v t,
  vm_lrb (read_vmap (w_eng w) v) = height (w_env w) ->
  p_block (read_position (w_eng w) v t) = height (w_env w) ->
  require_not_restriction_mode w v t = Err EGuard.
Proof. exact restriction_blocks. Qed.
Print Assumptions C16_guard_blocks.

Theorem C16_guard_passes : forall w v t,
  vm_lrb (read_vmap (w_eng w) v) <> height (w_env w) \/ p_block (read_position (w_eng w) v t) <> height (w_env w) ->
  require_not_restriction_mode w v t = Ok tt.
Proof.
  intros w v t H. unfold require_not_restriction_mode.
  destruct H as [H|H]; apply Z.eqb_neq in H; rewrite H; cbn; rewrite ?andb_false_r; reflexivity.
Qed.
Print Assumptions C16_guard_passes.

(* second sentence, the case of a trader with no stored record on the vAMM (never traded there, or the record was
   removed by a whole close or a full liquidation): the one-action refusal never meets them *)
Theorem C16_fresh_trader_unrestricted : forall w v t,
  find_position (w_eng w) v t = None -> height (w_env w) <> 0 -> require_not_restriction_mode w v t = Ok tt.
Proof.
  intros w v t. intros Hf Hh. apply C16_guard_passes. right. unfold read_position. rewrite Hf. cbn [default_position p_block]. congruence.
Qed.
Print Assumptions C16_fresh_trader_unrestricted.

Theorem C16_open_is_guarded : forall w t v s m l lim f r,
  e_open_position w t v s m l lim f = Ok r -> require_not_restriction_mode w v t = Ok tt.
Proof. exact open_restricted. Qed.
Print Assumptions C16_open_is_guarded.

Theorem C16_close_is_guarded : forall w t v lim r,
  e_close_position w t v lim = Ok r -> require_not_restriction_mode w v t = Ok tt.
Proof. exact close_restricted. Qed.
Print Assumptions C16_close_is_guarded.

(* end to end: marker and stamp both at the current height => the trader's OpenPosition / ClosePosition
   transaction on that vAMM fails and the world is exactly what it was (for every fault index too) *)
Theorem C16_restricted_open_changes_nothing : forall f w t v s m l lim funds,
  vm_lrb (read_vmap (w_eng w) v) = height (w_env w) ->
  p_block (read_position (w_eng w) v t) = height (w_env w) ->
  step_f f w (OEngine t (EOpenPosition v s m l lim) funds) = (w, false).
Proof.
  intros f w t v s m l lim funds H1 H2. apply engine_refusal_is_failed_tx. intros tk r Eo. apply open_restricted in Eo.
  rewrite (restriction_blocks (set_tok w tk) v t H1 H2) in Eo. discriminate.
Qed.
Print Assumptions C16_restricted_open_changes_nothing.
Theorem C16_restricted_close_changes_nothing : forall f w t v lim funds,
  vm_lrb (read_vmap (w_eng w) v) = height (w_env w) ->
  p_block (read_position (w_eng w) v t) = height (w_env w) ->
  step_f f w (OEngine t (EClosePosition v lim) funds) = (w, false).
Proof.
  intros f w t v lim funds H1 H2. apply engine_refusal_is_failed_tx. intros tk r Eo. apply close_restricted in Eo.
  rewrite (restriction_blocks (set_tok w tk) v t H1 H2) in Eo. discriminate.
Qed.
Print Assumptions C16_restricted_close_changes_nothing.

(* the marker is set by a liquidation - full or partial - on that vAMM only, to the current height *)
Theorem C16_full_liquidation_marks : forall w i o w' msgs tm,
  liquidate_reply w i o = Ok (w', msgs) -> e_tmp (w_eng w) = Some tm ->
  vm_lrb (read_vmap (w_eng w') (ts_vamm tm)) = height (w_env w) /\
  (forall v2, v2 <> ts_vamm tm -> read_vmap (w_eng w') v2 = read_vmap (w_eng w) v2) /\
  find_position (w_eng w') (ts_vamm tm) (ts_trader tm) = None.
Proof. exact liquidate_reply_marks. Qed.
Print Assumptions C16_full_liquidation_marks.
Theorem C16_partial_liquidation_marks : forall w i o w' msgs tm,
  partial_liquidation_reply w i o = Ok (w', msgs) -> e_tmp (w_eng w) = Some tm ->
  vm_lrb (read_vmap (w_eng w') (ts_vamm tm)) = height (w_env w) /\
  (forall v2, v2 <> ts_vamm tm -> read_vmap (w_eng w') v2 = read_vmap (w_eng w) v2).
Proof. exact partial_liquidation_reply_marks. Qed.
Print Assumptions C16_partial_liquidation_marks.

(* no trading reply touches any marker (funding keeps it too: C11_engine_settlement) *)
Theorem C16_trade_keeps_marker : forall w i o id w' subs, update_position_reply w i o id = Ok (w', subs) -> e_vmap (w_eng w') = e_vmap (w_eng w).
Proof. intros w i o id w' subs. intros H. apply (trade_reply_vmap w i o id w' subs). auto. Qed.
Print Assumptions C16_trade_keeps_marker.
Theorem C16_reverse_keeps_marker : forall w i o w' subs, reverse_position_reply w i o = Ok (w', subs) -> e_vmap (w_eng w') = e_vmap (w_eng w).
Proof. intros w i o w' subs. intros H. apply (trade_reply_vmap w i o 0 w' subs). auto. Qed.
Print Assumptions C16_reverse_keeps_marker.
Theorem C16_close_keeps_marker : forall w i o w' subs, close_position_reply w i o = Ok (w', subs) -> e_vmap (w_eng w') = e_vmap (w_eng w).
Proof. intros w i o w' subs. intros H. apply (trade_reply_vmap w i o 0 w' subs). auto. Qed.
Print Assumptions C16_close_keeps_marker.
Theorem C16_partial_close_keeps_marker : forall w i o w' subs, partial_close_position_reply w i o = Ok (w', subs) -> e_vmap (w_eng w') = e_vmap (w_eng w).
Proof. intros w i o w' subs. intros H. apply (trade_reply_vmap w i o 0 w' subs). auto. Qed.
Print Assumptions C16_partial_close_keeps_marker.

(* the stamp: a reversal and a partial close store the current height (increase / reduce:
   C11_trade_charges_once); a partial liquidation leaves the liquidated position's stamp alone *)
Theorem C16_reverse_stamps : forall w i o w' subs tm,
  reverse_position_reply w i o = Ok (w', subs) -> e_tmp (w_eng w) = Some tm ->
  exists p', find_position (w_eng w') (ts_vamm tm) (ts_trader tm) = Some p' /\ p_block p' = height (w_env w).
Proof. exact reverse_position_reply_stamps. Qed.
Print Assumptions C16_reverse_stamps.
Theorem C16_partial_close_stamps : forall w i o w' subs tm,
  partial_close_position_reply w i o = Ok (w', subs) -> e_tmp (w_eng w) = Some tm ->
  exists p', find_position (w_eng w') (ts_vamm tm) (ts_trader tm) = Some p' /\ p_block p' = height (w_env w).
Proof. exact partial_close_position_reply_stamps. Qed.
Print Assumptions C16_partial_close_stamps.
Theorem C16_partial_liquidation_no_stamp : forall w i o w' msgs tm,
  partial_liquidation_reply w i o = Ok (w', msgs) -> e_tmp (w_eng w) = Some tm ->
  exists p', find_position (w_eng w') (ts_vamm tm) (ts_trader tm) = Some p' /\
    p_block p' = p_block (get_position (w_eng w) (w_env w) (ts_vamm tm) (ts_trader tm) (ts_side tm)).
Proof. exact partial_liquidation_reply_no_stamp. Qed.
Print Assumptions C16_partial_liquidation_no_stamp.

(* END TO END through the whole message tree (any fault index): a successful Liquidate transaction leaves
   the vAMM's marker at the current height; a successful OpenPosition transaction leaves the sender's stored
   position stamped with the current height; and with both in place the trader's next OpenPosition /
   ClosePosition on that vAMM fails and changes nothing *)
Theorem C16_liquidate_tx_marks : forall f w s v t lim funds w',
  exec_op f w (OEngine s (ELiquidate v t lim) funds) = Ok w' ->
  vm_lrb (read_vmap (w_eng w') v) = height (w_env w) /\ w_env w' = w_env w.
Proof.
  intros f w s v t lim funds w'. intros H. pose proof (exec_engine_env _ _ _ _ _ _ H) as Henv. split; [|exact Henv]. rewrite <- Henv.
  apply exec_engine_tok in H. destruct H as (tk & w1 & subs & n & He & Hd).
  apply liquidate_readyl in He. revert Hd He.
  apply dispatched_pending; [apply marked_core|apply pendl_core|apply pendl_swap|apply pair_marked].
Qed.
Print Assumptions C16_liquidate_tx_marks.
Theorem C16_open_position_tx_stamps : forall f w t v s m l lim funds w',
  exec_op f w (OEngine t (EOpenPosition v s m l lim) funds) = Ok w' ->
  (exists p, find_position (w_eng w') v t = Some p /\ p_block p = height (w_env w)) /\ w_env w' = w_env w.
Proof.
  intros f w t v s m l lim funds w'. intros H. pose proof (exec_engine_env _ _ _ _ _ _ H) as Henv. split; [|exact Henv]. rewrite <- Henv. revert H.
  apply (open_position_tx_goal stamped stamped_core).
  - intros w0 i o id w1 subs tm Hre Htmp He. unfold stamped. rewrite He. exact (update_position_reply_stamps _ _ _ _ _ _ _ Hre Htmp).
  - intros w0 i o w1 subs tm Hre Htmp _. unfold stamped.
    rewrite (contract_reply_env w0 A_ENGINE REVERSE_ID (Ok (EvSwap i o)) _ _ Hre). exact (reverse_position_reply_stamps _ _ _ _ _ _ Hre Htmp).
Qed.
Print Assumptions C16_open_position_tx_stamps.
Theorem C16_restricted_after_both : forall f w t v s m l lim funds,
  vm_lrb (read_vmap (w_eng w) v) = height (w_env w) ->
  (exists p, find_position (w_eng w) v t = Some p /\ p_block p = height (w_env w)) ->
  step_f f w (OEngine t (EOpenPosition v s m l lim) funds) = (w, false) /\
  step_f f w (OEngine t (EClosePosition v lim) funds) = (w, false).
Proof.
  intros f w t v s m l lim funds. intros Hm (p & Hf & Hb).
  assert (Hs : p_block (read_position (w_eng w) v t) = height (w_env w)) by (unfold read_position; rewrite Hf; exact Hb).
  split; [apply C16_restricted_open_changes_nothing | apply C16_restricted_close_changes_nothing]; assumption.
Qed.
Print Assumptions C16_restricted_after_both.

(* non-vacuity: in the concrete scenario trader 21 trades, then trader 22 (made liquidatable by raising the
   maintenance ratio) is liquidated in the same block: marker and stamp are both at the current height, and
   trader 21's next OpenPosition and ClosePosition are refused *)
Definition c16_example : bool :=
  match scenario with
  | Ok w =>
      let w1 := run w [OEngine 21 (EOpenPosition 11 Buy 1000000 2000000 0) 0;
                       OEngine 1 (EUpdateConfig None None None (Some 900000) (Some 900000) None None) 0;
                       OEngine 31 (ELiquidate 11 22 0) 0] in
      (vm_lrb (read_vmap (w_eng w1) 11) =? height (w_env w1)) &&
      (p_block (read_position (w_eng w1) 11 21) =? height (w_env w1)) &&
      match find_position (w_eng w1) 11 22 with None => true | Some _ => false end &&
      negb (snd (step_f (-1) w1 (OEngine 21 (EOpenPosition 11 Buy 1000000 2000000 0) 0))) &&
      negb (snd (step_f (-1) w1 (OEngine 21 (EClosePosition 11 0) 0)))
  | Err _ => false
  end.
Example C16_nonvacuous : c16_example = true.
Proof. vm_compute. reflexivity. Qed.

(* HISTORY LEVEL.  In every reachable state the marker of every vAMM is at most the current height (it is
   only ever set to the current height, and heights do not decrease); hence as soon as the height has
   advanced, the guard passes for every trader on every vAMM: traders in later blocks are not restricted. *)
Theorem C16_marker_never_ahead : forall ops w, Forall block_ok ops -> lrb_le w -> lrb_le (run w ops).
Proof.
  intros ops w. apply (run_inv lrb_le block_ok). intros w0 o Hok Hle. apply step_lrb; assumption.
Qed.
Print Assumptions C16_marker_never_ahead.
Theorem C16_marker_initial : forall e d w, init_world e d = Ok w -> 0 <= height e -> lrb_le w.
Proof.
  intros e d w. unfold init_world, engine_instantiate. intros H He. minv H. minv_all. inv_ok. intros v. unfold read_vmap. cbn [w_eng e_vmap w_env zfind]. cbn [vm_lrb default_vmap]. exact He.
Qed.
Print Assumptions C16_marker_initial.
Theorem C16_later_blocks_unrestricted : forall w dt dh v t,
  lrb_le w -> 0 < dh ->
  require_not_restriction_mode (set_env w (mkEnv (now (w_env w) + dt) (height (w_env w) + dh))) v t = Ok tt.
Proof.
  intros w dt dh v t. intros Hle Hdh. apply C16_guard_passes. left. cbn [w_eng w_env set_env height]. specialize (Hle v). lia.
Qed.
Print Assumptions C16_later_blocks_unrestricted.
