(* C09: privileged operations are restricted to their role.
   Each theorem: the entry point succeeds only for its role.  (A failed call changes nothing:
   C08_failed_tx_changes_nothing.) *)
From MP.Model Require Import Prelude U128 SInt Feed Vamm VammOps Token World Engine Runtime.
From MP.Proofs Require Import Tactics HandlerFacts ConfigFacts.

Theorem C09_vamm_swap_input : forall v e s d q l c r, swap_input v e s d q l c = Ok r -> s = v_engine (vc v) /\ v_open (vs v) = true.
Proof. exact swap_input_only_engine. Qed.
Print Assumptions C09_vamm_swap_input.
Theorem C09_vamm_swap_output : forall v e s d b l r, swap_output v e s d b l = Ok r -> s = v_engine (vc v) /\ v_open (vs v) = true.
Proof. exact swap_output_only_engine. Qed.
Print Assumptions C09_vamm_swap_output.
Theorem C09_vamm_settle_funding : forall v e s o r, settle_funding v e s o = Ok r -> s = v_engine (vc v).
Proof. exact settle_funding_only_engine. Qed.
Print Assumptions C09_vamm_settle_funding.
Theorem C09_vamm_update_config : forall v s u v',
  opt_nonneg (u_toll u) -> opt_nonneg (u_spread u) -> opt_nonneg (u_fluct u) ->
  vamm_update_config v s u = Ok v' -> vcfg_ok (vc v) ->
  vcfg_ok (vc v') /\ v_dec (vc v') = v_dec (vc v) /\ is_admin (v_owner v) s = true /\ vs v' = vs v.
Proof. exact vamm_update_config_cfg. Qed.
Print Assumptions C09_vamm_update_config.
Theorem C09_vamm_set_open : forall v e s o v', set_open v e s o = Ok v' ->
  (is_admin (v_owner v) s = true \/ s = v_ifund (vc v)) /\ v_open (vs v) <> o /\ v_open (vs v') = o.
Proof.
  intros v e s o v'. unfold set_open. intros H. minv H. inv_ok. cbn.
  apply negb_true_iff in Hb. apply orb_false_iff in Hb. destruct Hb as [H1 H2].
  apply andb_false_iff in H1. split; [|split; [|reflexivity]].
  - destruct H1 as [H1|H1]; apply negb_false_iff in H1; zb; auto.
  - apply eqb_false_iff in H2. exact H2.
Qed.
Print Assumptions C09_vamm_set_open.
Theorem C09_vamm_update_owner : forall v s n v', vamm_update_owner v s n = Ok v' -> is_admin (v_owner v) s = true /\ v_owner v' = Some n.
Proof. intros v s n v'. unfold vamm_update_owner. intros H. minv H. inv_ok. auto. Qed.
Print Assumptions C09_vamm_update_owner.

Theorem C09_engine_update_config : forall w s o i f a b c d r, e_update_config w s o i f a b c d = Ok r -> s = e_owner (ec (w_eng w)).
Proof. intros w s o i f a b c d r H. apply Z.eqb_eq. exact (check_ok _ _ _ _ H). Qed.
Print Assumptions C09_engine_update_config.
Theorem C09_engine_set_pause : forall w s p r, e_set_pause w s p = Ok r -> is_admin (e_pauser (w_eng w)) s = true.
Proof. intros w s p r H. apply check_ok, negb_true_iff, orb_false_iff in H. apply negb_false_iff, H. Qed.
Print Assumptions C09_engine_set_pause.
Theorem C09_engine_update_pauser : forall w s p r, e_update_pauser w s p = Ok r -> is_admin (e_pauser (w_eng w)) s = true.
Proof. intros w s p r. apply check_ok. Qed.
Print Assumptions C09_engine_update_pauser.
Theorem C09_engine_add_whitelist : forall w s a r, e_add_whitelist w s a = Ok r -> is_admin (e_pauser (w_eng w)) s = true.
Proof. intros w s a r. apply check_ok. Qed.
Print Assumptions C09_engine_add_whitelist.
Theorem C09_engine_remove_whitelist : forall w s a r, e_remove_whitelist w s a = Ok r -> is_admin (e_pauser (w_eng w)) s = true.
Proof. intros w s a r. apply check_ok. Qed.
Print Assumptions C09_engine_remove_whitelist.

Theorem C09_fund_withdraw : forall w s amt r, if_withdraw w s amt = Ok r -> s = if_engine (w_if w).
Proof. intros w s amt r. intros H. apply Z.eqb_eq. exact (check_ok _ _ _ _ H). Qed.
Print Assumptions C09_fund_withdraw.
Theorem C09_fund_add_vamm : forall w s v r, if_add_vamm w s v = Ok r -> is_admin (if_owner (w_if w)) s = true.
Proof. intros w s v r. apply check_ok. Qed.
Print Assumptions C09_fund_add_vamm.
Theorem C09_fund_remove_vamm : forall w s v r, if_remove_vamm w s v = Ok r -> is_admin (if_owner (w_if w)) s = true.
Proof. intros w s v r. apply check_ok. Qed.
Print Assumptions C09_fund_remove_vamm.
Theorem C09_fund_update_owner : forall w s n r, if_update_owner w s n = Ok r -> is_admin (if_owner (w_if w)) s = true /\ if_owner (w_if (fst r)) = Some n.
Proof. intros w s n r. unfold if_update_owner. intros H. minv H. inv_ok. auto. Qed.
Print Assumptions C09_fund_update_owner.
Theorem C09_fund_shutdown : forall w s r, if_shutdown w s = Ok r -> is_admin (if_owner (w_if w)) s = true \/ s = A_IFUND.
Proof. intros w s r. intros H. apply check_ok, orb_true_iff in H. destruct H; zb; auto. Qed.
Print Assumptions C09_fund_shutdown.

Theorem C09_feepool_add_token : forall w s t r, fp_add_token w s t = Ok r -> is_admin (fp_owner (w_fp w)) s = true.
Proof. intros w s t r. apply check_ok. Qed.
Print Assumptions C09_feepool_add_token.
Theorem C09_feepool_remove_token : forall w s t r, fp_remove_token w s t = Ok r -> is_admin (fp_owner (w_fp w)) s = true.
Proof. intros w s t r. apply check_ok. Qed.
Print Assumptions C09_feepool_remove_token.
Theorem C09_feepool_send_token : forall w s t a rc r, fp_send_token w s t a rc = Ok r -> is_admin (fp_owner (w_fp w)) s = true.
Proof.
  intros w s t a rc r. unfold fp_send_token. intros H. destr_if_in H; [|discriminate]. exact (check_ok _ _ _ _ H).
Qed.
Print Assumptions C09_feepool_send_token.
Theorem C09_feepool_update_owner : forall w s n r, fp_update_owner w s n = Ok r -> is_admin (fp_owner (w_fp w)) s = true /\ fp_owner (w_fp (fst r)) = Some n.
Proof. intros w s n r. unfold fp_update_owner. intros H. minv H. inv_ok. auto. Qed.
Print Assumptions C09_feepool_update_owner.

Theorem C09_feed_append : forall f s p t f', rf_append f s p t = Ok f' -> is_admin (rf_owner f) s = true.
Proof. intros f s p t f'. apply check_ok. Qed.
Print Assumptions C09_feed_append.
Theorem C09_feed_append_multiple : forall f s ps ts f', rf_append_multiple f s ps ts = Ok f' -> is_admin (rf_owner f) s = true.
Proof. intros f s ps ts f'. apply check_ok. Qed.
Print Assumptions C09_feed_append_multiple.
Theorem C09_feed_update_owner : forall f s n f', rf_update_owner f s n = Ok f' -> is_admin (rf_owner f) s = true /\ rf_owner f' = Some n.
Proof. intros f s n f'. unfold rf_update_owner. intros H. minv H. inv_ok. auto. Qed.
Print Assumptions C09_feed_update_owner.

(* a role is held by exactly the stored address: after a transfer to n, n passes and nobody else *)
Theorem C09_role_is_exactly_the_holder : forall a s, is_admin (Some a) s = true <-> s = a.
Proof. intros a s. unfold is_admin. split; intros H; zb; auto. subst. apply Z.eqb_refl. Qed.
Print Assumptions C09_role_is_exactly_the_holder.

(* TRANSACTION LEVEL.  The engine's privileged messages sent by anyone but the role holder: the transaction
   fails and returns the very same world (any funds attached, any fault index). *)
Theorem C09_not_owner_update_config_tx : forall f w s o i fp a b c d funds, s <> e_owner (ec (w_eng w)) ->
  step_f f w (OEngine s (EUpdateConfig o i fp a b c d) funds) = (w, false).
Proof.
  intros f w s o i fp a b c d funds. intros H. apply engine_refusal_is_failed_tx. intros tk r Eo. exact (H (C09_engine_update_config _ _ _ _ _ _ _ _ _ _ Eo)).
Qed.
Print Assumptions C09_not_owner_update_config_tx.
Theorem C09_not_pauser_set_pause_tx : forall f w s p funds, is_admin (e_pauser (w_eng w)) s = false ->
  step_f f w (OEngine s (ESetPause p) funds) = (w, false).
Proof.
  intros f w s p funds. intros H. apply engine_refusal_is_failed_tx. intros tk r Eo. apply C09_engine_set_pause in Eo. cbn [w_eng set_tok] in Eo. congruence.
Qed.
Print Assumptions C09_not_pauser_set_pause_tx.
Theorem C09_not_pauser_update_pauser_tx : forall f w s p funds, is_admin (e_pauser (w_eng w)) s = false ->
  step_f f w (OEngine s (EUpdatePauser p) funds) = (w, false).
Proof.
  intros f w s p funds. intros H. apply engine_refusal_is_failed_tx. intros tk r Eo. apply C09_engine_update_pauser in Eo. cbn [w_eng set_tok] in Eo. congruence.
Qed.
Print Assumptions C09_not_pauser_update_pauser_tx.
Theorem C09_not_pauser_whitelist_tx : forall f w s a funds, is_admin (e_pauser (w_eng w)) s = false ->
  step_f f w (OEngine s (EAddWhitelist a) funds) = (w, false) /\ step_f f w (OEngine s (ERemoveWhitelist a) funds) = (w, false).
Proof.
  intros f w s a funds. intros H. split; apply engine_refusal_is_failed_tx; intros tk r Eo;
    [apply C09_engine_add_whitelist in Eo|apply C09_engine_remove_whitelist in Eo]; cbn [w_eng set_tok] in Eo; congruence.
Qed.
Print Assumptions C09_not_pauser_whitelist_tx.
