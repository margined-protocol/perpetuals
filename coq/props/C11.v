(* C11: funding settles on schedule, exactly. *)
From MP.Model Require Import Prelude U128 SInt Feed Vamm VammOps Token World Engine Runtime.
From MP.Proofs Require Import Tactics SIntFacts HandlerFacts FrameFacts MirrorFacts EngineGuards EngineArith MoreFacts
 FundingTxFacts.
From MP.Model Require Import Scenario.

Theorem C11_too_early_fails : forall v e s o, now e < v_next_funding (vs v) -> exists er, settle_funding v e s o = Err er.
Proof.
  intros v e s o H. unfold settle_funding. destruct (v_open (vs v)); [|eauto].
  destruct (s =? v_engine (vc v)); [|eauto].
  apply Z.ltb_lt in H. rewrite H. cbn. eauto.
Qed.
Print Assumptions C11_too_early_fails.

(* an accepted settlement: premium fraction = (vAMM TWAP - oracle TWAP) x period / day (checked
   signed arithmetic, truncating), next funding time at least half a period (the buffer) later *)
Theorem C11_settlement : forall v e s o v' pf,
  settle_funding v e s o = Ok (v', pf) ->
  v_open (vs v) = true /\ s = v_engine (vc v) /\ v_next_funding (vs v) <= now e /\
  exists underlying index premium p1,
    o_twap o (v_twap_interval (vc v)) = Ok underlying /\
    q_twap_price v e (v_twap_interval (vc v)) = Ok index /\
    schecked_sub (spos index) (spos underlying) = Ok premium /\
    schecked_mul premium (spos (v_fperiod (vc v))) = Ok p1 /\
    schecked_div p1 (spos ONE_DAY) = Ok pf /\
    now e + v_fbuffer (vc v) <= v_next_funding (vs v') /\
    (now e + v_fperiod (vc v)) / ONE_HOUR * ONE_HOUR <= v_next_funding (vs v').
Proof. exact settle_funding_spec. Qed.
Print Assumptions C11_settlement.

(* the engine side of an accepted settlement: the cumulative premium fraction advances by exactly the
   fraction the vAMM reported; with payment = trunc(net position x fraction / D), a negative payment
   draws |payment| from the insurance fund into the vault, a positive one sends min(payment, vault
   balance) from the vault to the insurance fund, zero moves nothing; nothing else changes *)
Theorem C11_engine_settlement : forall w pf vamm w' msgs,
  pay_funding_reply w pf vamm = Ok (w', msgs) ->
  wf0 pf -> cpf_wf (w_eng w) vamm -> 0 < e_dec (ec (w_eng w)) ->
  (forall v, get_vamm w vamm = Ok v -> wf0 (v_total (vs v))) ->
  toZ (cumulative_premium_fraction (w_eng w') vamm) = toZ (cumulative_premium_fraction (w_eng w) vamm) + toZ pf /\
  wf0 (cumulative_premium_fraction (w_eng w') vamm) /\
  (exists v, get_vamm w vamm = Ok v /\
     msgs = funding_msgs w (Z.quot (toZ (v_total (vs v)) * toZ pf) (e_dec (ec (w_eng w))))) /\
  w_tok w' = w_tok w /\ w_vamms w' = w_vamms w /\ w_if w' = w_if w /\ w_fp w' = w_fp w /\
  es (w_eng w') = es (w_eng w) /\ ec (w_eng w') = ec (w_eng w) /\ e_pos (w_eng w') = e_pos (w_eng w) /\
  vm_lrb (read_vmap (w_eng w') vamm) = vm_lrb (read_vmap (w_eng w) vamm).
Proof. exact pay_funding_reply_spec. Qed.
Print Assumptions C11_engine_settlement.

(* a trade (increase or reduce) charges exactly the funding owed since the checkpoint - the stored margin
   is max(0, delta - owed + old margin) - moves the checkpoint to the current cumulative fraction, and
   afterwards nothing is owed: the same settlement cannot be charged again *)
Theorem C11_trade_charges_once : forall w i o id w' subs tm,
  update_position_reply w i o id = Ok (w', subs) -> e_tmp (w_eng w) = Some tm ->
  let v := ts_vamm tm in let t := ts_trader tm in
  let p := get_position (w_eng w) (w_env w) v t (ts_side tm) in
  pos_wf p -> cpf_wf (w_eng w) v -> 0 < e_dec (ec (w_eng w)) ->
  wf0 (ts_upnl tm) -> 0 <= o -> 0 <= ts_open_notional tm -> 0 < ts_leverage tm ->
  exists p' delta, find_position (w_eng w') v t = Some p' /\
    p_lupf p' = cumulative_premium_fraction (w_eng w) v /\
    p_block p' = height (w_env w) /\
    p_margin p' = Z.max 0 (delta - funding_owed w v p + p_margin p) /\
    (id = INCREASE_ID -> delta = ts_open_notional tm * e_dec (ec (w_eng w)) / ts_leverage tm) /\
    cumulative_premium_fraction (w_eng w') v = cumulative_premium_fraction (w_eng w) v /\
    funding_owed w' v p' = 0.
Proof.
  intros w i o id w' subs tm H Htmp v t p Hp Hc HD Hup Ho Hon Hlev. subst p t v.
  unfold update_position_reply, need_tmp in H. rewrite Htmp in H. cbn [bind] in H. arm H.
  match goal with Hr : (if id =? INCREASE_ID then _ else _) = Ok (_, _, ?d, _, _), Hm : calc_remain_margin _ _ _ ?d = Ok _ |- _ =>
    rename Hr into Er; rename Hm into Erm; rename d into md end.
  assert (Hmd : wf0 md /\ (id = INCREASE_ID -> toZ md = ts_open_notional tm * e_dec (ec (w_eng w)) / ts_leverage tm)).
  { destruct (Z.eqb_spec id INCREASE_ID) as [Ei|Ei]; arm Er.
    - arith_ok. subst. split; [apply spos_wf0; apply Z.div_pos; nia|]. intros _. apply toZ_spos.
    - split; [|intros; contradiction].
      match goal with Hr : (if negb (s_is_zero _) then _ else _) = Ok md |- _ => apply realized_pnl_wf0 in Hr; [exact Hr|exact Hup| |apply Hp] end.
      destruct (ts_side tm); [apply spos_wf0|apply sneg_wf0]; exact Ho. }
  destruct Hmd as (Wmd & Hdelta).
  apply calc_remain_margin_spec in Erm; auto. destruct Erm as (El & _ & Hneg & Hpos & _).
  eexists _, (toZ md). cbn [w_eng set_eng]. rewrite find_set_sent, find_set_tmp, find_set_state.
  split; [apply find_store_same|]. cbn [p_lupf p_block p_margin].
  split; [exact El|]. split; [reflexivity|]. split; [lia|]. split; [exact Hdelta|]. split; [reflexivity|].
  apply funding_owed_settled; [exact HD|exact El].
Qed.
Print Assumptions C11_trade_charges_once.

(* a reversal settles the old position too: what it releases is the margin after the charge, max(0, margin - owed)
   (the charge is capped at the margin there is; a shortfall is bad debt, which C04 / C07 speak about).  The
   released amount minus the unrealised PnL is what an exact reversal transfers to the trader, and what the
   re-opening leg of a larger reversal carries as margin-to-vault (with the fees marked as paid, so they are
   not charged a second time) *)
Theorem C11_reversal_charges_once : forall w i o w' subs tm,
  reverse_position_reply w i o = Ok (w', subs) -> e_tmp (w_eng w) = Some tm ->
  let v := ts_vamm tm in let t := ts_trader tm in
  let p := get_position (w_eng w) (w_env w) v t (ts_side tm) in
  pos_wf p -> cpf_wf (w_eng w) v -> 0 < e_dec (ec (w_eng w)) ->
  let released := Z.max 0 (p_margin p - funding_owed w v p) in
  exists x, schecked_sub (sneg_ released) (ts_upnl tm) = Ok x /\
    ((exists fees, subs = fees ++ [execute_transfer t (sval x)] /\ e_tmp (w_eng w') = None) \/
     (exists tm', e_tmp (w_eng w') = Some tm' /\ ts_mtv tm' = x /\ ts_fees_paid tm' = true)).
Proof.
  intros w i o w' subs tm H Htmp v t p Hp Hc HD released.
  destruct (reverse_position_reply_spec _ _ _ _ _ _ H Htmp) as (st1 & fp & mg & bad & lat & fmsgs & spread & toll & x & _ & Hrm & _ & Hx & Hl).
  apply calc_remain_margin_spec in Hrm; [|exact Hp|exact Hc|unfold wf0; cbn; lia|exact HD]. destruct Hrm as (_ & _ & Hlt & Hge & _).
  assert (Hm : mg = released) by (subst released p t v; cbn [toZ szero sval sneg] in Hlt, Hge; lia).
  exists x. rewrite <- Hm. split; [exact Hx|].
  destruct Hl as [[-> ->]|(q & sent & _ & -> & _)]; [left; eauto|right; eexists; repeat split].
Qed.
Print Assumptions C11_reversal_charges_once.

(* END TO END.  A successful PayFunding transaction (vAMM settlement, engine reply, the transfer; any fault
   index) advances the cumulative premium fraction by exactly the fraction the vAMM computed, and with
   payment = trunc(net position x fraction / D) moves exactly |payment| of collateral: from the vault to the
   insurance fund when positive (capped at the vault's balance), from the insurance fund to the vault when
   negative, nothing when zero; no other account's balance changes.  Side conditions: both TWAPs
   non-negative, the fund pays the engine, the engine's fund address is the fund. *)
Theorem C11_pay_funding_tx : forall f w s v w' vm,
  exec_op f w (OEngine s (EPayFunding v) 0) = Ok w' ->
  get_vamm w v = Ok vm -> wf0 (v_total (vs vm)) -> cpf_wf (w_eng w) v -> 0 < e_dec (ec (w_eng w)) ->
  (forall x, o_twap (oracle_of w vm) (v_twap_interval (vc vm)) = Ok x -> 0 <= x) ->
  (forall x, q_twap_price vm (w_env w) (v_twap_interval (vc vm)) = Ok x -> 0 <= x) ->
  0 <= v_fperiod (vc vm) ->
  if_engine (w_if w) = A_ENGINE -> e_ifund (ec (w_eng w)) = A_IFUND ->
  exists vm' pf, settle_funding vm (w_env w) A_ENGINE (oracle_of w vm) = Ok (vm', pf) /\
    toZ (cumulative_premium_fraction (w_eng w') v) = toZ (cumulative_premium_fraction (w_eng w) v) + toZ pf /\
    let payment := Z.quot (toZ (v_total (vs vm)) * toZ pf) (e_dec (ec (w_eng w))) in
    let moved := if payment <? 0 then payment else if 0 <? payment then Z.min (bal (w_tok w) A_ENGINE) payment else 0 in
    bal (w_tok w') A_ENGINE = bal (w_tok w) A_ENGINE - moved /\
    bal (w_tok w') A_IFUND = bal (w_tok w) A_IFUND + moved /\
    forall a, a <> A_ENGINE -> a <> A_IFUND -> bal (w_tok w') a = bal (w_tok w) a.
Proof. exact pay_funding_tx. Qed.
Print Assumptions C11_pay_funding_tx.

(* "no settlement is charged twice or skipped", the accrual side.  funding_num w v p = (cumulative fraction -
   checkpoint of p) x size of p is the numerator of what p owes (funding_owed = funding_num / D, truncated).  A
   PayFunding transaction writes no stored position, and raises funding_num of every position on that vAMM by
   exactly premium fraction x size; a touch by the owner charges funding_owed and moves the checkpoint to the
   current value (C11_trade_charges_once, C05_withdraw_margin_tx, C04_close_position_tx_pays_equity), i.e.
   resets funding_num to zero.  So what a position is charged at a touch is the sum of the settlements since
   its previous touch, each counted once. *)
Theorem C11_settlement_accrues_once : forall f w s v w' vm,
  exec_op f w (OEngine s (EPayFunding v) 0) = Ok w' ->
  get_vamm w v = Ok vm -> wf0 (v_total (vs vm)) -> cpf_wf (w_eng w) v -> 0 < e_dec (ec (w_eng w)) ->
  (forall x, o_twap (oracle_of w vm) (v_twap_interval (vc vm)) = Ok x -> 0 <= x) ->
  (forall x, q_twap_price vm (w_env w) (v_twap_interval (vc vm)) = Ok x -> 0 <= x) ->
  0 <= v_fperiod (vc vm) ->
  if_engine (w_if w) = A_ENGINE -> e_ifund (ec (w_eng w)) = A_IFUND -> e_tmp (w_eng w) = None ->
  exists vm' pf, settle_funding vm (w_env w) A_ENGINE (oracle_of w vm) = Ok (vm', pf) /\
    (forall u t, find_position (w_eng w') u t = find_position (w_eng w) u t) /\
    (forall p, funding_num w' v p = funding_num w v p + toZ pf * toZ (p_size p)).
Proof.
  intros f w s v w' vm H Hv Hwt Hc HD H1 H2 H3 H4 H5 Htmp.
  destruct (pay_funding_tx _ _ _ _ _ _ H Hv Hwt Hc HD H1 H2 H3 H4 H5) as (vm' & pf & Hs & Hcpf & _).
  exists vm', pf. split; [exact Hs|]. split.
  - intros u t. apply (exec_engine_frame _ _ _ _ _ _ u t H); [exact Logic.I|exact Htmp].
  - intros p. unfold funding_num. rewrite Hcpf. ring.
Qed.
Print Assumptions C11_settlement_accrues_once.

(* non-vacuity: in the concrete scenario, after the funding time has passed and the oracle price was moved,
   PayFunding by a stranger succeeds, every premise holds, and collateral moves between vault and fund *)
Definition c11_example : bool :=
  match scenario with
  | Ok w0 =>
      let w := run w0 [OBlock 4000 1; OFeed 1 (PAppend 9000000 5030)] in
      match zfind 11 (w_vamms w) with
      | Some vm =>
          let nonneg r := match r with Ok x => 0 <=? x | Err _ => true end in
          wf0b (v_total (vs vm)) && wf0b (cumulative_premium_fraction (w_eng w) 11) && (0 <? e_dec (ec (w_eng w))) &&
          nonneg (o_twap (oracle_of w vm) (v_twap_interval (vc vm))) &&
          nonneg (q_twap_price vm (w_env w) (v_twap_interval (vc vm))) && (0 <=? v_fperiod (vc vm)) &&
          (if_engine (w_if w) =? A_ENGINE) && (e_ifund (ec (w_eng w)) =? A_IFUND) &&
          match exec_op (-1) w (OEngine 41 (EPayFunding 11) 0) with
          | Ok w' => negb (bal (w_tok w') A_ENGINE =? bal (w_tok w) A_ENGINE) &&
                     (bal (w_tok w') A_ENGINE + bal (w_tok w') A_IFUND =? bal (w_tok w) A_ENGINE + bal (w_tok w) A_IFUND)
          | Err _ => false
          end
      | None => false
      end
  | Err _ => false
  end.
Example C11_nonvacuous : c11_example = true.
Proof. vm_compute. reflexivity. Qed.

(* FIXED FINDING (reverse_skips_funding, fix b30e5da in /repo): before the fix a reversing OpenPosition never
   charged the funding its old position owed.  The concrete scenario that was the refutation witness now shows
   the charge: a settlement leaves trader 21 owing 44560; after the reversal the trader's wallet is exactly
   44560 lower than in the run without the settlement, the new position's margin is the same. *)
Definition c11_reversal_outcome (settle : bool) : option (Z * Z * Z) :=
  match scenario with
  | Ok w0 =>
      let w := run w0 ([OBlock 4000 1; OFeed 1 (PAppend 9000000 5030)] ++ (if settle then [OEngine 41 (EPayFunding 11) 0] else [])) in
      let p := read_position (w_eng w) 11 21 in
      match exec_op (-1) w (OEngine 21 (EOpenPosition 11 Sell 11000000 2000000 0) 0) with
      | Ok w' => Some (funding_owed w 11 p, bal (w_tok w') 21, p_margin (read_position (w_eng w') 11 21))
      | Err _ => None
      end
  | Err _ => None
  end.
Example C11_reversal_charges_funding_example :
  c11_reversal_outcome true = Some (44560, 999993823183 - 44560, 6058939) /\
  c11_reversal_outcome false = Some (0, 999993823183, 6058939).
Proof. split; vm_compute; reflexivity. Qed.
