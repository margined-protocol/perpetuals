(* C06: liquidation only of under-margined positions, with exact payouts. *)
From MP.Model Require Import Prelude U128 SInt Feed Vamm VammOps Token World Engine Runtime.
From MP.Proofs Require Import Tactics SIntFacts HandlerFacts MirrorFacts CloseFacts LiqFacts LiqTxFacts.
From MP.Model Require Import Scenario.

(* Liquidate is accepted only if the liquidation ratio (spot/TWAP ratio, overridden by the oracle
   ratio when the spread limit is exceeded and it is higher) is not above the maintenance ratio,
   the position is non-empty and the vAMM is registered and open *)
Theorem C06_only_if_under_margined : forall w s v t lim r,
  e_liquidate w s v t lim = Ok r ->
  exists mr, liq_ratio (with_liquidator w s) v t = Ok mr /\
             sgtb mr (spos (e_maint (ec (w_eng w)))) = false /\
             sval (p_size (read_position (w_eng w) v t)) <> 0 /\
             require_vamm (with_liquidator w s) v = Ok tt.
Proof. exact liquidate_only_if. Qed.
Print Assumptions C06_only_if_under_margined.

(* `not greater` on the type = `<=` on the integers *)
Theorem C06_ratio_le_maintenance : forall mr m, wf0 mr -> 0 <= m -> sgtb mr (spos m) = false -> toZ mr <= m.
Proof. intros mr m. intros Hw Hm H. rewrite sgtb_spos0 in H by assumption. apply Z.ltb_ge in H. exact H. Qed.
Print Assumptions C06_ratio_le_maintenance.

(* a full liquidation pays the liquidator exactly floor(floor(quote x fee / D) / 2), pays the
   liquidated trader nothing, removes the position and marks the block *)
Theorem C06_full_liquidation : forall w i o w' msgs swap liquidator,
  e_tmp (w_eng w) = Some swap -> e_liq (w_eng w) = Some liquidator ->
  let v := ts_vamm swap in let t := ts_trader swap in
  0 <= o -> 0 < e_dec (ec (w_eng w)) -> 0 <= e_liqfee (ec (w_eng w)) ->
  liquidator <> e_ifund (ec (w_eng w)) ->
  liquidate_reply w i o = Ok (w', msgs) ->
  let fee := o * e_liqfee (ec (w_eng w)) / e_dec (ec (w_eng w)) / 2 in
  transfers_to liquidator msgs = fee /\
  (t <> liquidator -> t <> e_ifund (ec (w_eng w)) -> transfers_to t msgs = 0) /\
  find_position (w_eng w') v t = None /\
  vm_lrb (read_vmap (w_eng w') v) = height (w_env w) /\
  w_tok w' = w_tok w /\ w_vamms w' = w_vamms w.
Proof. intros; eapply liquidate_reply_spec; eauto. Qed.
Print Assumptions C06_full_liquidation.

(* END TO END.  A Liquidate transaction that liquidates the position in full (nothing is left stored for the
   trader) - swap, reply, insurance-fund draws, transfers; any fault index - pays the liquidator exactly
   floor(floor(exchanged quote x liquidation fee ratio / D) / 2) and leaves the liquidated trader's wallet
   exactly as it was. *)
Theorem C06_full_liquidation_tx_pays : forall f w s v t lim funds w',
  exec_op f w (OEngine s (ELiquidate v t lim) funds) = Ok w' ->
  let p := read_position (w_eng w) v t in
  0 < e_dec (ec (w_eng w)) -> 0 <= e_liqfee (ec (w_eng w)) ->
  s <> A_ENGINE -> s <> A_IFUND -> s <> if_engine (w_if w) -> s <> e_ifund (ec (w_eng w)) ->
  find_position (w_eng w') v t = None ->
  exists vm vm' o, get_vamm w v = Ok vm /\
    swap_output vm (w_env w) A_ENGINE (p_dir p) (sval (p_size p)) lim = Ok (vm', (o, sval (p_size p))) /\
    bal (w_tok w') s = bal (w_tok w) s - funds + o * e_liqfee (ec (w_eng w)) / e_dec (ec (w_eng w)) / 2 /\
    (t <> s -> t <> A_ENGINE -> t <> A_IFUND -> t <> if_engine (w_if w) -> t <> e_ifund (ec (w_eng w)) ->
       bal (w_tok w') t = bal (w_tok w) t).
Proof. intros; eapply liquidate_tx_pays; eauto. Qed.
Print Assumptions C06_full_liquidation_tx_pays.

(* non-vacuity: in the concrete scenario trader 22, made liquidatable by raising the maintenance ratio, is
   liquidated in full by account 31, whose wallet grows *)
Definition c06_example : bool :=
  match scenario with
  | Ok w =>
      let w1 := run w [OEngine 1 (EUpdateConfig None None None (Some 900000) (Some 900000) None None) 0] in
      match exec_op (-1) w1 (OEngine 31 (ELiquidate 11 22 0) 0) with
      | Ok w' =>
          (0 <? e_dec (ec (w_eng w1))) && (0 <=? e_liqfee (ec (w_eng w1))) &&
          negb (31 =? A_ENGINE) && negb (31 =? A_IFUND) && negb (31 =? if_engine (w_if w1)) && negb (31 =? e_ifund (ec (w_eng w1))) &&
          match find_position (w_eng w') 11 22 with None => true | Some _ => false end &&
          (bal (w_tok w1) 31 <? bal (w_tok w') 31) && (bal (w_tok w') 22 =? bal (w_tok w1) 22)
      | Err _ => false
      end
  | Err _ => false
  end.
Example C06_nonvacuous : c06_example = true.
Proof. vm_compute. reflexivity. Qed.

(* END TO END, partial liquidation.  A Liquidate transaction after which the position is still stored - the
   partial path - has swapped out exactly b = floor(|size| x partial ratio / D) base, leaves the position with
   size moved by exactly b toward zero and its direction unchanged, and pays the liquidator exactly
   floor(floor(exchanged quote x fee ratio / D) / 2). *)
Theorem C06_partial_liquidation_tx : forall f w s v t lim funds w',
  exec_op f w (OEngine s (ELiquidate v t lim) funds) = Ok w' ->
  let p := read_position (w_eng w) v t in
  let c := ec (w_eng w) in
  coherent p -> 0 <= e_plr c -> 0 < e_dec c ->
  s <> A_ENGINE -> s <> A_IFUND -> s <> if_engine (w_if w) -> s <> e_ifund c ->
  (exists p1, find_position (w_eng w') v t = Some p1) ->
  exists p' vm vm' o,
    find_position (w_eng w') v t = Some p' /\
    get_vamm w v = Ok vm /\
    let b := sval (p_size p) * e_plr c / e_dec c in
    swap_output vm (w_env w) A_ENGINE (p_dir p) b (lim * e_plr c / e_dec c) = Ok (vm', (o, b)) /\
    toZ (p_size p') = (if toZ (p_size p) <? 0 then toZ (p_size p) + b else toZ (p_size p) - b) /\
    p_dir p' = p_dir p /\
    bal (w_tok w') s = bal (w_tok w) s - funds + o * e_liqfee c / e_dec c / 2.
Proof. exact partial_liquidation_tx. Qed.
Print Assumptions C06_partial_liquidation_tx.

(* non-vacuity: with a 25% partial ratio and a margin ratio between the liquidation fee and maintenance,
   trader 22 is liquidated in part *)
Definition c06_partial_example : bool :=
  match scenario with
  | Ok w =>
      let w1 := run w [OEngine 1 (EUpdateConfig None None None (Some 900000) (Some 900000) (Some 250000) None) 0] in
      match exec_op (-1) w1 (OEngine 31 (ELiquidate 11 22 0) 0) with
      | Ok w' =>
          let p := read_position (w_eng w1) 11 22 in
          match find_position (w_eng w') 11 22 with
          | Some p' => (sval (p_size p') <? sval (p_size p)) && negb (sval (p_size p') =? 0) && (bal (w_tok w1) 31 <? bal (w_tok w') 31)
          | None => false
          end
      | Err _ => false
      end
  | Err _ => false
  end.
Example C06_partial_nonvacuous : c06_partial_example = true.
Proof. vm_compute. reflexivity. Qed.

(* the first clause at TRANSACTION level: a Liquidate transaction (any caller, any funds, any fault index) succeeds
   only if, on the state it starts from, the ratio as defined for liquidation is computable and not above the
   maintenance ratio, the named position is not empty and the vAMM is registered and open *)
Theorem C06_liquidate_tx_only_if : forall f w s v t lim funds w',
  exec_op f w (OEngine s (ELiquidate v t lim) funds) = Ok w' ->
  exists mr, liq_ratio (with_liquidator w s) v t = Ok mr /\
             sgtb mr (spos (e_maint (ec (w_eng w)))) = false /\
             sval (p_size (read_position (w_eng w) v t)) <> 0 /\
             require_vamm (with_liquidator w s) v = Ok tt.
Proof.
  intros f w s v t lim funds w'. intros H. apply exec_engine_tok in H. destruct H as (tk & w1 & subs & n & He & _).
  exact (liquidate_only_if _ _ _ _ _ _ He).
Qed.
Print Assumptions C06_liquidate_tx_only_if.
