(* C11 end to end: what a PayFunding transaction does to the cumulative premium fraction, the vault and the
   insurance fund. *)
From MP.Model Require Import Prelude U128 SInt Feed Vamm VammOps Token World Engine Runtime.
From MP.Proofs Require Import Tactics MapFacts SIntFacts VammFacts EngineGuards EngineArith HandlerFacts MirrorFacts MoreFacts FlowFacts CloseTxFacts.

Lemma pay_funding_reply_leafy' w pf a w' subs : pay_funding_reply w pf a = Ok (w', subs) -> Forall leafy subs.
Proof. exact (pay_funding_reply_leafy w pf a w' subs). Qed.

Lemma settle_funding_pf_wf v e s o v' pf :
  settle_funding v e s o = Ok (v', pf) ->
  (forall x, o_twap o (v_twap_interval (vc v)) = Ok x -> 0 <= x) ->
  (forall x, q_twap_price v e (v_twap_interval (vc v)) = Ok x -> 0 <= x) ->
  0 <= v_fperiod (vc v) -> wf0 pf.
Proof.
  intros H Ho Hq Hp. apply settle_funding_spec in H.
  destruct H as (_ & _ & _ & underlying & index & premium & p1 & Hu & Hi & Hs & Hm & Hd & _).
  apply schecked_sub_toZ0 in Hs; [|apply spos_wf0; apply Hq; exact Hi|apply spos_wf0; apply Ho; exact Hu].
  destruct Hs as (_ & Wp & _).
  rewrite schecked_mul_eq in Hm. apply smul_toZ0 in Hm; [|exact Wp|apply spos_wf0; exact Hp]. destruct Hm as (_ & W1 & _).
  rewrite schecked_div_eq in Hd. apply sdiv_toZ0 in Hd; [|exact W1|apply spos_wf0; unfold ONE_DAY; lia]. apply Hd.
Qed.

Theorem pay_funding_tx f w s v w' vm :
  exec_op f w (OEngine s (EPayFunding v) 0) = Ok w' ->
  get_vamm w v = Ok vm -> wf0 (v_total (vs vm)) -> cpf_wf (w_eng w) v -> 0 < e_dec (ec (w_eng w)) ->
  (forall x, o_twap (oracle_of w vm) (v_twap_interval (vc vm)) = Ok x -> 0 <= x) ->
  (forall x, q_twap_price vm (w_env w) (v_twap_interval (vc vm)) = Ok x -> 0 <= x) ->
  0 <= v_fperiod (vc vm) ->
  if_engine (w_if w) = A_ENGINE -> e_ifund (ec (w_eng w)) = A_IFUND ->
  exists vm' pf, settle_funding vm (w_env w) A_ENGINE (oracle_of w vm) = Ok (vm', pf) /\
    toZ (cumulative_premium_fraction (w_eng w') v) = toZ (cumulative_premium_fraction (w_eng w) v) + toZ pf /\
    let payment := Z.quot (toZ (v_total (vs vm)) * toZ pf) (e_dec (ec (w_eng w))) in
    let moved := if payment <? 0 then payment else if 0 <? payment then Z.min (bal (w_tok w) A_ENGINE) payment else 0 in
    (* moved > 0: vault -> insurance fund (capped by the vault); moved < 0: insurance fund -> vault *)
    bal (w_tok w') A_ENGINE = bal (w_tok w) A_ENGINE - moved /\
    bal (w_tok w') A_IFUND = bal (w_tok w) A_IFUND + moved /\
    forall a, a <> A_ENGINE -> a <> A_IFUND -> bal (w_tok w') a = bal (w_tok w) a.
Proof.
  intros H Hvm Hwt Hc HD Ho Hq Hp Hie Hif.
  destruct (swap_tx _ _ _ _ _ _ H) as (tk & w1 & subs & _ & Hbal & He & Hrun). cbn [engine_execute] in He.
  assert (Htk : forall a, bal tk a = bal (w_tok w) a) by (intros a; rewrite Hbal; unfold ind; repeat destr_if; lia). clear Hbal.
  unfold e_pay_funding in He. arm He.
  destruct (Hrun _ eq_refl eq_refl eq_refl) as (w2 & ev & wr & msgs & Hex & Hr & Hfl). clear Hrun.
  cbn [sm_msg sm_id exec_simple] in Hex, Hr. change (get_vamm (set_tok w tk) v) with (get_vamm w v) in Hex. rewrite Hvm in Hex.
  cbn [bind w_env set_tok] in Hex. change (oracle_of (set_tok w tk) vm) with (oracle_of w vm) in Hex.
  destruct (settle_funding vm (w_env w) A_ENGINE (oracle_of w vm)) as [[vm' pf]|] eqn:Es; [|discriminate]. cbn [bind fst snd] in Hex. inv_ok.
  rewrite reply_pay_funding in Hr. destruct (Hfl (pay_funding_reply_leafy _ _ _ _ _ Hr)) as [(Ee & _) Hflow].
  pose proof (settle_funding_pf_wf _ _ _ _ _ _ Es Ho Hq Hp) as Wpf.
  pose proof (settle_funding_frame _ _ _ _ _ _ Es) as (_ & _ & _ & Htot & _).
  set (wsw := set_vamm (set_tok w tk) v vm') in *.
  assert (Hvt : forall v0, get_vamm wsw v = Ok v0 -> wf0 (v_total (vs v0))).
  { intros v0 Hg. unfold get_vamm in Hg. cbn [wsw w_vamms set_vamm] in Hg. rewrite zfind_zset_same in Hg. inv_ok. rewrite Htot. exact Hwt. }
  destruct (pay_funding_reply_spec wsw pf v wr msgs Hr Wpf Hc HD Hvt) as (Hcpf & _ & (v0 & Hv0 & Hmsgs) & _).
  unfold get_vamm in Hv0. cbn [wsw w_vamms set_vamm] in Hv0. rewrite zfind_zset_same in Hv0. injection Hv0 as <-.
  exists vm', pf. split; [reflexivity|]. split; [rewrite Ee; exact Hcpf|]. cbv zeta.
  rewrite Htot in Hmsgs. change (ec (w_eng wsw)) with (ec (w_eng w)) in Hmsgs.
  set (payment := Z.quot (toZ (v_total (vs vm)) * toZ pf) (e_dec (ec (w_eng w)))) in *.
  assert (Hfl' : forall a, bal (w_tok w') a = bal (w_tok w) a +
                 (if payment <? 0 then ind (a =? A_ENGINE) (- payment) - ind (a =? A_IFUND) (- payment)
                  else if 0 <? payment then ind (a =? A_IFUND) (Z.min (bal (w_tok w) A_ENGINE) payment) - ind (a =? A_ENGINE) (Z.min (bal (w_tok w) A_ENGINE) payment)
                  else 0)).
  { intros a. rewrite Hflow, Htk, Hmsgs, Hie. unfold funding_msgs. f_equal.
    destruct (payment <? 0); [cbn [flow sm_msg execute_insurance_fund_withdrawal]; lia|].
    destruct (0 <? payment); [|reflexivity].
    cbn [flow sm_msg execute_transfer execute_transfer_to_insurance_fund]. change (e_ifund (ec (w_eng wsw))) with (e_ifund (ec (w_eng w))).
    rewrite Hif. unfold engine_balance. cbn [wsw w_tok set_vamm set_tok]. rewrite Htk. lia. }
  unfold ind in Hfl'. split; [|split; [|intros a Ha1 Ha2]]; rewrite Hfl'.
  - change (A_ENGINE =? A_ENGINE) with true. change (A_ENGINE =? A_IFUND) with false.
    destruct (payment <? 0); [lia|]. destruct (0 <? payment); lia.
  - change (A_IFUND =? A_ENGINE) with false. change (A_IFUND =? A_IFUND) with true.
    destruct (payment <? 0); [lia|]. destruct (0 <? payment); lia.
  - destruct (Z.eqb_spec a A_ENGINE); [contradiction|]. destruct (Z.eqb_spec a A_IFUND); [contradiction|].
    destruct (payment <? 0); [lia|]. destruct (0 <? payment); lia.
Qed.

(* the numerator of the funding a position owes (funding_owed = this, divided by D, truncated); C11 follows it
   through the settlements *)
Definition funding_num (w : world) (v : addr) (p : position) : Z :=
  (toZ (cumulative_premium_fraction (w_eng w) v) - toZ (p_lupf p)) * toZ (p_size p).

Lemma funding_owed_num w v p : funding_owed w v p = Z.quot (funding_num w v p) (e_dec (ec (w_eng w))).
Proof. reflexivity. Qed.

