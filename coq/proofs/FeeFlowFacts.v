(* C12.  What an engine transaction pays to a third account (the fee pool), through the whole message tree: leaf messages
   pay what they say; a replying swap is worth what its reply (transitively) will pay, given by a predicate on the
   in-flight record.  Instantiated for OpenPosition: on every path - new position, increase, reduce, reversal with
   or without a re-opening leg - the fee pool receives the toll on the requested notional exactly once; and for
   liquidations, funding settlements, deposits and withdrawals, which pay it nothing. *)
From MP.Model Require Import Prelude U128 SInt Feed Vamm VammOps Token World Engine Runtime.
From MP.Proofs Require Import Tactics MapFacts RuntimeFacts HandlerFacts ResidueFacts MirrorFacts MoreFacts
  CloseFacts FlowFacts CloseTxFacts PartiesFacts.

(* net amount the leaf message pays to `a` (a is not the engine, the fund or the fund's beneficiary) *)
Definition pays1 (a : addr) (s : submsg) : Z := paid_to a [s] - pulled_from a [s].

Fixpoint owed (pend : world -> msg -> Z -> Z -> Prop) (a : addr) (w : world) (subs : list submsg) (x : Z) : Prop :=
  match subs with
  | [] => x = 0
  | s :: rest =>
      if wants_ok (sm_reply s) then rest = [] /\ sm_reply s = RAlways /\ pend w (sm_msg s) (sm_id s) x
      else is_leaf (sm_msg s) = true /\ owed pend a w rest (x - pays1 a s)
  end.

Definition pend_closed (pend : world -> msg -> Z -> Z -> Prop) : Prop :=
  forall w w1 m id x, same_core w w1 -> pend w m id x -> pend w1 m id x.

Lemma owed_core pend a w w1 subs : pend_closed pend -> same_core w w1 -> forall x, owed pend a w subs x -> owed pend a w1 subs x.
Proof.
  intros HP Hc. induction subs as [|s rest IH]; intros x; cbn [owed]; [auto|].
  destruct (wants_ok (sm_reply s)).
  - intros (E & R & Q). split; [exact E|split; [exact R|eapply HP; eauto]].
  - intros (L & R). split; auto.
Qed.

Lemma avoids_nothing a l : Forall (avoids a) l -> paid_to a l = 0 /\ pulled_from a l = 0.
Proof.
  induction 1 as [|s l Hs Hl [IH1 IH2]]; cbn [paid_to pulled_from]; [split; reflexivity|].
  rewrite IH1, IH2. unfold avoids in Hs. unfold ind. destruct (sm_msg s); try (split; lia).
  - destruct (Z.eqb_spec to a); [contradiction|]. split; lia.
  - destruct Hs as [H1 H2]. destruct (Z.eqb_spec to a); [contradiction|]. destruct (Z.eqb_spec a owner); [congruence|]. split; lia.
Qed.

Lemma owed_leafy_app pend a w l1 l2 : Forall leafy l1 -> forall x,
  owed pend a w (l1 ++ l2) x <-> owed pend a w l2 (x - (paid_to a l1 - pulled_from a l1)).
Proof.
  induction 1 as [|s l [Hs1 Hs2] Hl IH]; intros x; cbn [owed app paid_to pulled_from]; [rewrite Z.sub_0_r; reflexivity|].
  rewrite Hs1. rewrite IH. unfold pays1. cbn [paid_to pulled_from].
  match goal with |- _ /\ owed _ _ _ _ ?u <-> owed _ _ _ _ ?v => replace u with v by lia end.
  split; [intros [_ H]; exact H|intros H; exact (conj Hs2 H)].
Qed.

Lemma owed_leafy pend a w l : Forall leafy l -> forall x, owed pend a w l x <-> x = paid_to a l - pulled_from a l.
Proof. intros H x. rewrite <- (app_nil_r l) at 1. rewrite owed_leafy_app by exact H. cbn [owed]. lia. Qed.

Lemma owed_avoids pend a w l : Forall leafy l -> Forall (avoids a) l -> owed pend a w l 0.
Proof. intros Hl Ha. apply owed_leafy; [exact Hl|]. destruct (avoids_nothing a l Ha) as [-> ->]. reflexivity. Qed.

(* a single replying swap is worth what its reply will pay *)
Lemma owed_swap (pend : world -> msg -> Z -> Z -> Prop) a w s x : sm_reply s = RAlways -> pend w (sm_msg s) (sm_id s) x -> owed pend a w [s] x.
Proof. intros Hr Hp. cbn [owed]. rewrite Hr. cbn [wants_ok]. auto. Qed.

(* pend values a pending swap at what its reply - and the replies to what that emits - will pay a *)
Definition pend_sound (pend : world -> msg -> Z -> Z -> Prop) (a : addr) : Prop :=
  pend_closed pend /\
  (forall w m id x, pend w m id x -> is_swap m = true) /\
  forall w m id x w1 ev w2 subs, a <> if_engine (w_if w) -> pend w m id x -> exec_simple w A_ENGINE m = Ok (w1, ev) ->
    contract_reply w1 A_ENGINE id (Ok ev) = Ok (w2, subs) -> owed pend a w2 subs x.

Lemma runs_leaf_pays f w n s w1 n1 ev a :
  runs f w n A_ENGINE (sm_msg s) w1 n1 ev -> is_leaf (sm_msg s) = true ->
  a <> A_ENGINE -> a <> A_IFUND -> a <> if_engine (w_if w) ->
  bal (w_tok w1) a = bal (w_tok w) a + pays1 a s.
Proof.
  intros Hr Hl H1 H2 H3. destruct (runs_leaf_flow _ _ _ _ _ _ _ _ Hr Hl) as [_ Hb].
  rewrite Hb, (flow_split _ _ _ H1 H2 H3). reflexivity.
Qed.

(* what a holds plus what it is still owed stays the same through the message tree *)
Lemma dispatched_owed pend a f w n subs w' n' x :
  a <> A_ENGINE -> a <> A_IFUND -> pend_sound pend a ->
  dispatched f w n A_ENGINE subs w' n' -> a <> if_engine (w_if w) -> owed pend a w subs x ->
  bal (w_tok w') a = bal (w_tok w) a + x.
Proof.
  intros Ha1 Ha2 (HP & Hswap & Hpair) H HI Hr.
  apply (dispatched_ready (fun w1 l => a <> if_engine (w_if w1) /\
           exists y, owed pend a w1 l y /\ bal (w_tok w1) a + y = bal (w_tok w) a + x)) in H.
  - destruct H as (_ & y & Hy & E). cbn [owed] in Hy. lia.
  - intros f0 w0 n0 s rest w1 n1 ev (HI0 & y & Hy & E) Hw Hx. cbn [owed] in Hy. rewrite Hw in Hy. destruct Hy as [Hl Hy].
    destruct (runs_exec _ _ _ _ _ _ _ _ Hx) as (c' & m' & ev' & Hx').
    split; [rewrite (exec_simple_if _ _ _ _ _ Hx'); exact HI0|]. exists (y - pays1 a s).
    split; [exact (owed_core _ _ _ _ _ HP (runs_leaf_core _ _ _ _ _ _ _ _ Hx Hl) _ Hy)|].
    rewrite (runs_leaf_pays _ _ _ _ _ _ _ _ Hx Hl Ha1 Ha2 HI0). lia.
  - intros f0 w0 n0 s rest w1 n1 ev w2 l (HI0 & y & Hy & E) Hw Hx Hc. cbn [owed] in Hy. rewrite Hw in Hy. destruct Hy as (-> & _ & Hp).
    destruct (runs_swap _ _ _ _ _ _ _ _ Hx (Hswap _ _ _ _ Hp)) as [Hx' _]. split; [|auto].
    split; [rewrite (contract_reply_if _ _ _ _ _ _ Hc), (exec_simple_if _ _ _ _ _ Hx'); exact HI0|].
    exists y. split; [exact (Hpair _ _ _ _ _ _ _ _ HI0 Hp Hx' Hc)|].
    rewrite (contract_reply_tok _ _ _ _ _ _ Hc). destruct (exec_swap_vc _ _ _ _ _ (Hswap _ _ _ _ Hp) Hx') as (v & vm & vm' & _ & -> & _). exact E.
  - split; [exact HI|]. exists x. split; [exact Hr|reflexivity].
Qed.

Lemma dispatch_owed (pend : world -> msg -> Z -> Z -> Prop) (a : addr) :
  a <> A_ENGINE -> a <> A_IFUND ->
  pend_closed pend ->
  (forall w m id x, pend w m id x -> is_swap m = true) ->
  (forall w m id x w1 ev w2 subs, a <> if_engine (w_if w) -> pend w m id x -> exec_simple w A_ENGINE m = Ok (w1, ev) ->
     contract_reply w1 A_ENGINE id (Ok ev) = Ok (w2, subs) -> owed pend a w2 subs x) ->
  forall fuel f w n subs w' n' x,
    dispatch fuel f w n A_ENGINE subs = Ok (w', n') -> a <> if_engine (w_if w) -> owed pend a w subs x ->
    bal (w_tok w') a = bal (w_tok w) a + x /\ w_if w' = w_if w.
Proof.
  intros Ha1 Ha2 HP Hswap Hpair fuel f w n subs w' n' x H HI Hr. apply dispatch_dispatched in H.
  split; [exact (dispatched_owed _ _ _ _ _ _ _ _ _ Ha1 Ha2 (conj HP (conj Hswap Hpair)) H HI Hr)|exact (dispatched_if _ _ _ _ _ _ _ H)].
Qed.

Definition toll_of (vm : vamm) (n : Z) : Z := fee_of vm n (v_toll (vc vm)).

Lemma fees_pool_net w from vamm notional msgs spread toll vm :
  transfer_fees w from vamm notional = Ok (msgs, spread, toll) -> get_vamm w vamm = Ok vm ->
  let pool := e_feepool (ec (w_eng w)) in
  e_ifund (ec (w_eng w)) <> pool -> from <> pool ->
  paid_to pool msgs - pulled_from pool msgs = toll_of vm notional.
Proof.
  intros H Hv pool H1 H2. subst pool.
  rewrite (paid_fees_pool _ _ _ _ _ _ _ H H1).
  rewrite (pulled_fees_other _ _ _ _ _ _ _ (e_feepool (ec (w_eng w))) H) by congruence.
  apply transfer_fees_spec in H. destruct H as (v & Hv2 & -> & _). rewrite Hv in Hv2. injection Hv2 as <-.
  unfold toll_of, fee_of. lia.
Qed.

Lemma update_position_reply_pool w i o id w' subs tm vm :
  update_position_reply w i o id = Ok (w', subs) -> e_tmp (w_eng w) = Some tm ->
  get_vamm w (ts_vamm tm) = Ok vm ->
  ts_trader tm <> e_feepool (ec (w_eng w)) -> e_ifund (ec (w_eng w)) <> e_feepool (ec (w_eng w)) -> A_ENGINE <> e_feepool (ec (w_eng w)) ->
  Forall leafy subs /\
  paid_to (e_feepool (ec (w_eng w))) subs - pulled_from (e_feepool (ec (w_eng w))) subs =
    if ts_fees_paid tm then 0 else toll_of vm (ts_open_notional tm).
Proof.
  intros H Htmp Hv Ht Hi He. split; [exact (update_position_reply_leafy _ _ _ _ _ _ H)|].
  unfold update_position_reply, need_tmp in H. rewrite Htmp in H. cbn [bind] in H. arm H.
  rewrite paid_to_app, pulled_from_app.
  (* the margin messages pass the pool by; the fee messages, if any, bring it the toll *)
  match goal with |- paid_to _ ?margin + _ - _ = _ =>
    assert (Hl : Forall (avoids (e_feepool (ec (w_eng w)))) margin) by avoid_goal; destruct (avoids_nothing _ _ Hl) as [-> ->] end.
  match goal with Hf : (if negb (ts_fees_paid tm) then _ else _) = Ok _ |- _ =>
    destruct (ts_fees_paid tm); cbn [negb] in Hf; arm Hf end; [reflexivity|].
  match goal with Hf : transfer_fees _ _ _ _ = Ok _ |- _ => exact (fees_pool_net _ _ _ _ _ _ _ vm Hf Hv Hi Ht) end.
Qed.

Definition swap_on (m : msg) (v : addr) : Prop :=
  match m with MSwapInput v' _ _ _ _ | MSwapOutput v' _ _ _ => v' = v | _ => False end.

(* what the reply to the pending swap of an OpenPosition will (transitively) pay to the fee pool *)
Definition pend_toll (a : addr) (w : world) (m : msg) (id : Z) (x : Z) : Prop :=
  (id = INCREASE_ID \/ id = DECREASE_ID \/ id = REVERSE_ID) /\
  exists tm vm, e_tmp (w_eng w) = Some tm /\ get_vamm w (ts_vamm tm) = Ok vm /\ swap_on m (ts_vamm tm) /\
    a = e_feepool (ec (w_eng w)) /\
    ts_trader tm <> a /\ e_ifund (ec (w_eng w)) <> a /\
    (id = REVERSE_ID -> ts_fees_paid tm = false) /\
    x = if ts_fees_paid tm then 0 else toll_of vm (ts_open_notional tm).

Lemma toll_of_vc vm vm' n : vc vm' = vc vm -> toll_of vm' n = toll_of vm n.
Proof. intros E. unfold toll_of, fee_of. rewrite E. reflexivity. Qed.

(* the pending swap runs on the recorded vAMM, whose configuration it keeps *)
Lemma exec_swap_on w c m v vm w1 ev :
  exec_simple w c m = Ok (w1, ev) -> swap_on m v -> get_vamm w v = Ok vm ->
  exists vm', get_vamm w1 v = Ok vm' /\ vc vm' = vc vm.
Proof.
  intros Hex Hs Hv. apply exec_simple_cases in Hex. apply get_vamm_find in Hv. unfold get_vamm.
  destruct m; try contradiction; cbn [swap_on] in Hs; subst v; destruct Hex as (vm0 & vm' & Hz & -> & Hvc);
    rewrite Hz in Hv; injection Hv as <-; exists vm'; cbn [w_vamms set_vamm]; rewrite zfind_zset_same; auto.
Qed.

Lemma pend_toll_pair a w m id x w1 ev w2 subs :
  a <> A_ENGINE ->
  pend_toll a w m id x -> exec_simple w A_ENGINE m = Ok (w1, ev) ->
  contract_reply w1 A_ENGINE id (Ok ev) = Ok (w2, subs) -> owed (pend_toll a) a w2 subs x.
Proof.
  intros HaE (Hid & tm & vm & Htmp & Hv & Hs & -> & Ht & Hi & Hrev & ->) Hex Hr.
  destruct (exec_swap_on _ _ _ _ _ _ _ Hex Hs Hv) as (vm' & Hv1 & Hvc).
  rewrite <- (toll_of_vc _ _ (ts_open_notional tm) Hvc). rewrite <- (exec_simple_eng _ _ _ _ _ Hex) in *. clear w vm Hv Hvc Hex.
  destruct Hid as [ -> | [ -> | -> ] ]; (destruct ev as [i o| |]; [|discriminate Hr..]); autorewrite with reply_id in Hr.
  1, 2: destruct (update_position_reply_pool _ _ _ _ _ _ tm vm' Hr Htmp Hv1 Ht Hi (not_eq_sym HaE)) as [Hl Hp];
        apply owed_leafy; [exact Hl|]; rewrite Hp; reflexivity.
  (* a reversal charges the fee at once; what follows it is the trader's payout or the re-opening swap, marked as paid *)
  rewrite (Hrev eq_refl).
  destruct (reverse_position_reply_spec _ _ _ _ _ _ Hr Htmp)
    as (st1 & fp & mg & bad & lat & fmsgs & spread & toll & y & _ & _ & Hf & _ & [[-> ->]|(q & sent & _ & -> & ->)]);
    (apply owed_leafy_app; [leafy_goal|]); rewrite (fees_pool_net _ _ _ _ _ _ _ vm' Hf Hv1 Hi Ht), Z.sub_diag.
  - apply owed_avoids; repeat constructor. exact Ht.
  - apply owed_swap; [reflexivity|]. split; [left; reflexivity|]. eexists _, vm'.
    cbn [w_eng set_eng e_tmp eng_set_state eng_set_sent eng_set_tmp]. split; [reflexivity|].
    cbn [ts_vamm ts_trader ts_open_notional ts_fees_paid internal_increase_position swap_input_msg sm_msg swap_on].
    split; [exact Hv1|]. split; [reflexivity|].
    split; [reflexivity|]. split; [exact Ht|]. split; [exact Hi|]. split; [discriminate|reflexivity].
Qed.

Lemma pend_toll_sound a : a <> A_ENGINE -> pend_sound (pend_toll a) a.
Proof.
  intros HaE. split; [|split].
  - intros w w1 m id x (E1 & E2 & E3) (Hid & tm & vm & H1 & H2 & H3). split; [exact Hid|].
    exists tm, vm. rewrite E1. unfold get_vamm in *. rewrite E2. exact (conj H1 (conj H2 H3)).
  - intros w m id x (_ & tm & vm & _ & _ & Hs & _). destruct m; try contradiction; reflexivity.
  - intros w m id x w1 ev w2 subs _. apply pend_toll_pair, HaE.
Qed.

(* funds are attached by the caller, a third account is owed what the handler's messages owe it *)
Lemma engine_tx_owed pend a x f w s m funds w' :
  exec_op f w (OEngine s m funds) = Ok w' ->
  a <> A_ENGINE -> a <> A_IFUND -> a <> if_engine (w_if w) -> a <> s -> pend_sound pend a ->
  (forall w0 w1 subs, same_core w w0 -> engine_execute w0 s m funds = Ok (w1, subs) -> owed pend a w1 subs x) ->
  bal (w_tok w') a = bal (w_tok w) a + x.
Proof.
  intros H A1 A2 A3 A4 HP Hex.
  destruct (engine_tx _ _ _ _ _ _ H) as (tk & w1 & subs & n & _ & _ & B0 & He & Et & Ei & Hd). specialize (B0 a). unfold ind in B0.
  destruct (Z.eqb_spec a A_ENGINE); [contradiction|]. destruct (Z.eqb_spec a s); [contradiction|].
  specialize (Hex (set_tok w tk) _ _ (conj eq_refl (conj eq_refl eq_refl)) He).
  rewrite (dispatched_owed pend a _ _ _ _ _ _ x A1 A2 HP Hd); [rewrite Et; lia|rewrite Ei; exact A3|exact Hex].
Qed.

(* END TO END: every successful OpenPosition - new position, increase, reduce, reversal with or without a
   re-opening leg - pays the fee pool the toll on the requested notional, once *)
Theorem open_position_tx_toll f w t v s m l lim funds w' vm :
  exec_op f w (OEngine t (EOpenPosition v s m l lim) funds) = Ok w' ->
  get_vamm w v = Ok vm ->
  let pool := e_feepool (ec (w_eng w)) in
  pool <> A_ENGINE -> pool <> A_IFUND -> pool <> if_engine (w_if w) -> e_ifund (ec (w_eng w)) <> pool -> t <> pool ->
  bal (w_tok w') pool = bal (w_tok w) pool + toll_of vm (m * l / e_dec (ec (w_eng w))).
Proof.
  intros H Hvm pool P1 P2 P3 P4 P5.
  apply (engine_tx_owed (pend_toll pool) pool _ _ _ _ _ _ _ H P1 P2 P3 (not_eq_sym P5) (pend_toll_sound pool P1)).
  intros w0 w1 subs (E1 & E2 & _) Eo. cbn [engine_execute] in Eo.
  destruct (open_position_shape _ _ _ _ _ _ _ _ _ _ Eo) as (pn & upnl & _ & -> & ->). rewrite E1.
  apply owed_swap; [repeat destr_if; reflexivity|]. split; [repeat destr_if; cbn; auto|].
  eexists _, vm. split; [reflexivity|]. cbn [ts_vamm ts_trader ts_open_notional ts_fees_paid w_eng set_eng ec eng_set_sent eng_set_tmp].
  split; [unfold get_vamm in *; cbn [w_vamms set_eng]; rewrite E2; exact Hvm|]. split; [repeat destr_if; reflexivity|].
  split; [reflexivity|]. split; [exact P5|]. split; [exact P4|]. split; reflexivity.
Qed.

(* The reply handlers of a liquidation and of a funding settlement emit nothing that concerns the fee pool. *)
Lemma liquidate_reply_avoids a w i o w' subs :
  liquidate_reply w i o = Ok (w', subs) -> (forall l, e_liq (w_eng w) = Some l -> l <> a) -> e_ifund (ec (w_eng w)) <> a ->
  Forall (avoids a) subs.
Proof.
  intros H Hl Hi. unfold liquidate_reply, need_liq in H.
  destruct (e_liq (w_eng w)) as [lq|]; [specialize (Hl lq eq_refl)|minv H; discriminate]. arm H.
  avoid_goal.
Qed.

Lemma partial_liquidation_reply_avoids a w i o w' subs :
  partial_liquidation_reply w i o = Ok (w', subs) -> (forall l, e_liq (w_eng w) = Some l -> l <> a) -> e_ifund (ec (w_eng w)) <> a ->
  Forall (avoids a) subs.
Proof.
  intros H Hl Hi. unfold partial_liquidation_reply, need_liq in H.
  destruct (e_liq (w_eng w)) as [lq|]; [specialize (Hl lq eq_refl)|minv H; discriminate]. arm H.
  avoid_goal.
Qed.

Lemma pay_funding_reply_avoids a w pf v w' subs :
  pay_funding_reply w pf v = Ok (w', subs) -> e_ifund (ec (w_eng w)) <> a -> Forall (avoids a) subs.
Proof.
  intros H Hi. unfold pay_funding_reply in H. arm H.
  match goal with Ha : append_cumulative_premium_fraction _ _ _ = Ok _ |- _ => apply append_cpf_vmap in Ha as [m ->] end.
  avoid_goal.
Qed.

Definition pend_zero (a : addr) (w : world) (m : msg) (id : Z) (x : Z) : Prop :=
  x = 0 /\ is_swap m = true /\ e_ifund (ec (w_eng w)) <> a /\ (forall l, e_liq (w_eng w) = Some l -> l <> a) /\
  (id = LIQUIDATION_ID \/ id = PARTIAL_LIQUIDATION_ID \/ id = PAY_FUNDING_ID).

Lemma pend_zero_pair a w m id x w1 ev w2 subs :
  pend_zero a w m id x -> exec_simple w A_ENGINE m = Ok (w1, ev) ->
  contract_reply w1 A_ENGINE id (Ok ev) = Ok (w2, subs) -> owed (pend_zero a) a w2 subs x.
Proof.
  intros (-> & _ & Hi & Hl & Hid) Hex Hr. rewrite <- (exec_simple_eng _ _ _ _ _ Hex) in Hi, Hl.
  assert (Forall leafy subs /\ Forall (avoids a) subs) as [H1 H2]; [|exact (owed_avoids _ _ _ _ H1 H2)].
  destruct Hid as [ -> | [ -> | -> ] ]; destruct ev; try discriminate Hr; autorewrite with reply_id in Hr.
  - exact (conj (liquidate_reply_leafy _ _ _ _ _ Hr) (liquidate_reply_avoids a _ _ _ _ _ Hr Hl Hi)).
  - exact (conj (partial_liquidation_reply_leafy _ _ _ _ _ Hr) (partial_liquidation_reply_avoids a _ _ _ _ _ Hr Hl Hi)).
  - exact (conj (pay_funding_reply_leafy _ _ _ _ _ Hr) (pay_funding_reply_avoids a _ _ _ _ _ Hr Hi)).
Qed.

Lemma pend_zero_sound a : pend_sound (pend_zero a) a.
Proof.
  split; [|split].
  - intros w w1 m id x (E1 & _ & _) H. unfold pend_zero in *. rewrite E1. exact H.
  - intros w m id x (_ & H & _). exact H.
  - intros w m id x w1 ev w2 subs _. apply pend_zero_pair.
Qed.

(* what the four transactions share: the handler's messages owe the fee pool nothing *)
Lemma engine_tx_no_fee f w s m funds w' :
  exec_op f w (OEngine s m funds) = Ok w' ->
  let pool := e_feepool (ec (w_eng w)) in
  pool <> A_ENGINE -> pool <> A_IFUND -> pool <> if_engine (w_if w) -> s <> pool ->
  (forall w0 w1 subs, w_eng w0 = w_eng w -> engine_execute w0 s m funds = Ok (w1, subs) -> owed (pend_zero pool) pool w1 subs 0) ->
  bal (w_tok w') pool = bal (w_tok w) pool.
Proof.
  intros H pool P1 P2 P3 P5 Hex. rewrite <- (Z.add_0_r (bal (w_tok w) pool)).
  apply (engine_tx_owed (pend_zero pool) pool _ _ _ _ _ _ _ H P1 P2 P3 (not_eq_sym P5) (pend_zero_sound pool)).
  intros w0 w1 subs (E & _). apply Hex, E.
Qed.
