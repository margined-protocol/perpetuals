(* What the funds attached to an engine transaction, and a list of leaf messages (transfers, pulls from a wallet,
   insurance-fund draws) executed by the engine, do to every account's balance; a dispatch that is one replying swap. *)
From MP.Model Require Import Prelude U128 SInt Feed Vamm VammOps Token World Engine Runtime.
From MP.Proofs Require Import Tactics RuntimeFacts HandlerFacts LedgerFacts ResidueFacts MirrorFacts.

(* an amount counted only for the account the test names *)
Definition ind (c : bool) (x : Z) : Z := if c then x else 0.

Lemma bal_set t a v b : bal (set_bal t a v) b = if b =? a then v else bal t b.
Proof. destruct (Z.eqb_spec b a) as [->|H]; [apply bal_set_same|apply bal_set_other, H]. Qed.

Lemma tok_move_bal t from to amt t' a : tok_move t from to amt = Ok t' ->
  bal t' a = bal t a + ind (a =? to) amt - ind (a =? from) amt.
Proof.
  unfold tok_move, ind. intros H. arm H. arith_ok. subst. rewrite !bal_set.
  destruct (Z.eqb_spec a to), (Z.eqb_spec a from), (Z.eqb_spec to from); subst; lia.
Qed.

Lemma tok_move_from_bal t sp owner to amt t' a : tok_move_from t sp owner to amt = Ok t' ->
  bal t' a = bal t a + ind (a =? to) amt - ind (a =? owner) amt.
Proof.
  unfold tok_move_from, ind. intros H. arm H. arith_ok. subst. rewrite !bal_set. unfold bal. cbn [t_bal].
  destruct (Z.eqb_spec a to), (Z.eqb_spec a owner), (Z.eqb_spec to owner); subst; lia.
Qed.

(* funds attached to a call: one move from the sender to the contract, on native deployments *)
Lemma attach_funds_ledger w s c funds w0 : attach_funds w s c funds = Ok w0 ->
  exists tk, w0 = set_tok w tk /\ t_native tk = t_native (w_tok w) /\
    forall a, bal tk a = bal (w_tok w) a + ind (a =? c) funds - ind (a =? s) funds.
Proof.
  intros H. destruct (attach_funds_tok _ _ _ _ _ H) as [[-> ->]|(_ & _ & tk & Hm & ->)].
  - exists (w_tok w). split; [destruct w; reflexivity|]. split; [reflexivity|]. intros a. unfold ind. repeat destr_if; lia.
  - exists tk. split; [reflexivity|]. split; [apply (tok_move_total _ _ _ _ _ Hm)|]. intros a. apply (tok_move_bal _ _ _ _ _ a Hm).
Qed.

(* An engine transaction: the attached funds move (ledger tk; only a native deployment accepts any), the execute arm
   runs on the result and writes neither the ledger nor the fund's record, and what it returns is dispatched. *)
Lemma engine_tx f w s m funds w' : exec_op f w (OEngine s m funds) = Ok w' ->
  exists tk w1 subs n, t_native tk = t_native (w_tok w) /\ (funds = 0 \/ t_native (w_tok w) = true) /\
    (forall a, bal tk a = bal (w_tok w) a + ind (a =? A_ENGINE) funds - ind (a =? s) funds) /\
    engine_execute (set_tok w tk) s m funds = Ok (w1, subs) /\ w_tok w1 = tk /\ w_if w1 = w_if w /\
    dispatched f w1 0 A_ENGINE subs w' n.
Proof.
  intros H. apply exec_engine_inv in H. destruct H as (w0 & w1 & subs & n & Ea & He & Hd).
  assert (Hf : funds = 0 \/ t_native (w_tok w) = true) by (destruct (attach_funds_tok _ _ _ _ _ Ea) as [[? _]|(_ & ? & _)]; auto).
  apply attach_funds_ledger in Ea. destruct Ea as (tk & -> & Hnat & Hbal).
  destruct (engine_execute_eng _ _ _ _ _ _ He) as (e1 & E1 & _). exists tk, w1, subs, n. rewrite E1 at 2 3. auto 10.
Qed.

(* net flow into account a of a leaf-message list sent by `sdr`; ie = the address the insurance fund pays *)
Fixpoint flow (sdr ie a : addr) (msgs : list submsg) : Z :=
  match msgs with
  | [] => 0
  | s :: rest =>
      (match sm_msg s with
       | MTransfer to amt => ind (a =? to) amt - ind (a =? sdr) amt
       | MTransferFrom owner to amt => ind (a =? to) amt - ind (a =? owner) amt
       | MIfWithdraw _ amt => ind (a =? ie) amt - ind (a =? A_IFUND) amt
       | _ => 0
       end) + flow sdr ie a rest
  end.

Lemma flow_app sdr ie a l1 l2 : flow sdr ie a (l1 ++ l2) = flow sdr ie a l1 + flow sdr ie a l2.
Proof. induction l1 as [|s l IH]; cbn [flow app]; [lia|]. rewrite IH. lia. Qed.

(* a draw on the insurance fund is the fund's transfer to the engine *)
Lemma runs_leaf_flow f w n c s w1 n1 ev : runs f w n c (sm_msg s) w1 n1 ev -> is_leaf (sm_msg s) = true ->
  w_if w1 = w_if w /\ forall a, bal (w_tok w1) a = bal (w_tok w) a + flow c (if_engine (w_if w)) a [s].
Proof.
  cbn [flow]. intros H Hl. destruct H as [m w1 ev Hx|amt w1 ev -> _ Hx]; [destruct m; try discriminate Hl|];
    cbn [exec_simple] in Hx; arm Hx; (split; [reflexivity|]); intros a; cbn [w_tok set_tok].
  - rewrite (tok_move_bal _ _ _ _ _ a Hx0). lia.
  - rewrite (tok_move_from_bal _ _ _ _ _ _ a Hx0). lia.
  - rewrite (tok_move_bal _ _ _ _ _ a Hx0). lia.
Qed.

Lemma dispatched_leafy_flow f w n sdr msgs w' n' : dispatched f w n sdr msgs w' n' -> Forall leafy msgs ->
  w_if w' = w_if w /\ forall a, bal (w_tok w') a = bal (w_tok w) a + flow sdr (if_engine (w_if w)) a msgs.
Proof.
  induction 1 as [|? ? ? s ? ? ? ? ? ? ? Hr _ _ IH|? ? ? s]; intros Hl.
  - split; [reflexivity|]. intros a. cbn [flow]. lia.
  - inversion Hl as [|? ? [_ Hs] Hrest]; subst. destruct (runs_leaf_flow _ _ _ _ _ _ _ _ Hr Hs) as [Hi Hb], (IH Hrest) as [Hi' Hb'].
    split; [congruence|]. intros a. rewrite Hb', Hb, Hi. cbn [flow]. lia.
  - inversion Hl as [|? ? [Hs _] _]; congruence.
Qed.

Lemma dispatch_leafy_flow fuel : forall f w n sdr msgs w' n',
  dispatch fuel f w n sdr msgs = Ok (w', n') -> Forall leafy msgs ->
  w_if w' = w_if w /\ forall a, bal (w_tok w') a = bal (w_tok w) a + flow sdr (if_engine (w_if w)) a msgs.
Proof. intros f w n sdr msgs w' n' H. eapply dispatched_leafy_flow, dispatch_dispatched, H. Qed.

Lemma dispatch_single fuel f w n s w' n' :
  dispatch fuel f w n A_ENGINE [s] = Ok (w', n') -> sm_reply s = RAlways -> is_swap (sm_msg s) = true ->
  exists k w1 ev w2 subs, fuel = S k /\
    exec_simple w A_ENGINE (sm_msg s) = Ok (w1, ev) /\
    contract_reply w1 A_ENGINE (sm_id s) (Ok ev) = Ok (w2, subs) /\
    exists n1, dispatch k f w2 (n + 1) A_ENGINE subs = Ok (w', n1).
Proof.
  intros H Hra Hsw. destruct fuel as [|k]; [discriminate|]. cbn [dispatch] in H. rewrite Hra in H. cbn [wants_ok wants_err] in H.
  (* a fault, or a swap that fails, is answered by a reply that fails *)
  assert (Herr : forall e, ~ (do x <- contract_reply w A_ENGINE (sm_id s) (Err e);
                              do y <- dispatch k f (fst x) (n + 1) A_ENGINE (snd x); dispatch k f (fst y) (snd y) A_ENGINE []) = Ok (w', n')).
  { intros e. destruct (contract_reply_err w A_ENGINE (sm_id s) e) as [e' ->]. discriminate. }
  destruct (n =? f); [destruct (Herr _ H)|].
  replace (match sm_msg s with MIfWithdraw _ _ => _ | _ => _ end)
    with (do x <- exec_simple w A_ENGINE (sm_msg s); Ok (fst x, n + 1, snd x)) in H by (destruct (sm_msg s); try reflexivity; discriminate Hsw).
  destruct (exec_simple w A_ENGINE (sm_msg s)) as [[w1 ev]|e]; cbn [bind fst snd] in H; [|destruct (Herr _ H)].
  arm H. destruct k as [|k]; [discriminate|]. cbn [dispatch] in H. inv_ok. eauto 10.
Qed.
