(* When OpenPosition's execute arm takes the opening / increasing route, as the code decides it: no position yet, or an
   order on the position's own side.  The C17 and C20 transaction theorems are stated over it. *)
From MP.Model Require Import Prelude U128 SInt Feed Vamm VammOps Token World Engine Runtime.

Definition is_increase_of (p : position) (s : side) : bool :=
  s_is_zero (p_size p) || (dir_eqb (p_dir p) AddToAmm && side_eqb s Buy) || (dir_eqb (p_dir p) RemoveFromAmm && side_eqb s Sell).
