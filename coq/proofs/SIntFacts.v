(* Facts about the Integer model: agreement with the mathematical integers. *)
From Coq Require Import String Ascii DecimalString DecimalN DecimalPos DecimalFacts.
From MP.Model Require Import Prelude U128 SInt.
From MP.Proofs Require Import Tactics.

(* representable operands: any sign flag, magnitude in [0, 2^128) - including the raw
   encoding of zero with the sign flag set *)
Definition wf (a : sint) : Prop := 0 <= sval a < MAXU.
(* canonical: the sign flag is not set on zero.  Every value the API returns is canonical. *)
Definition canon (a : sint) : Prop := sneg a = true -> sval a <> 0.
(* no upper bound on the magnitude: all that the state invariants carry *)
Definition wf0 (a : sint) : Prop := 0 <= sval a.

Lemma wf_wf0 a : wf a -> wf0 a.
Proof. unfold wf, wf0; lia. Qed.
Lemma wf0_toZ_abs a : wf0 a -> sval a = Z.abs (toZ a).
Proof. unfold wf0, toZ. destruct (sneg a); lia. Qed.

Lemma toZ_spos v : toZ (spos v) = v.
Proof. reflexivity. Qed.
Lemma spos_wf0 v : 0 <= v -> wf0 (spos v).
Proof. exact (fun H => H). Qed.
Lemma spos_canon v : canon (spos v).
Proof. discriminate. Qed.
Lemma sneg_toZ v : toZ (sneg_ v) = - v.
Proof. unfold sneg_, toZ; cbn. destruct (Z.eqb_spec v 0); cbn; lia. Qed.
Lemma sneg_wf0 v : 0 <= v -> wf0 (sneg_ v).
Proof. exact (fun H => H). Qed.
Lemma sneg_canon v : canon (sneg_ v).
Proof. unfold canon, sneg_; cbn. destruct (Z.eqb_spec v 0); cbn; congruence. Qed.

Lemma spos_is v z : z = v -> 0 <= v -> toZ (spos v) = z /\ wf0 (spos v) /\ canon (spos v).
Proof. auto using spos_canon. Qed.
Lemma sneg_is v z : z = - v -> 0 <= v -> toZ (sneg_ v) = z /\ wf0 (sneg_ v) /\ canon (sneg_ v).
Proof. intros -> Hv. rewrite sneg_toZ. auto using sneg_canon. Qed.

(* a guarded step fails exactly when its guard does *)
Lemma guard_err_iff {A B} (c : bool) (x : A) (f : A -> B) :
  (exists e, (do v <- (if c then Ok x else Err EArith); Ok (f v)) = Err e) <-> c = false.
Proof. destruct c; cbn; split; [intros [e H] | | | eauto]; congruence. Qed.

(* a result with the right value is representable as soon as the operation fails on every
   value that is not *)
Lemma ok_wf (x : res sint) z r :
  ((exists e, x = Err e) <-> MAXU <= Z.abs z) -> x = Ok r ->
  toZ r = z /\ wf0 r /\ canon r -> toZ r = z /\ wf r /\ canon r.
Proof.
  intros E H (Hz & H0 & Hc). refine (conj Hz (conj (conj H0 _) Hc)).
  rewrite (wf0_toZ_abs r H0), Hz. apply Z.nle_gt. intros Hm.
  apply E in Hm. destruct Hm as [e He]. congruence.
Qed.

Lemma sadd_toZ0 a b r : wf0 a -> wf0 b -> sadd a b = Ok r -> toZ r = toZ a + toZ b /\ wf0 r /\ canon r.
Proof.
  unfold wf0, sadd, toZ at 2 3; intros Ha Hb H.
  destruct (sneg a), (sneg b); try destr_if_in H; zb; inv_bind H; inv_ok; arith_ok;
    first [apply spos_is | apply sneg_is]; lia.
Qed.

Lemma sadd_err_iff a b : wf a -> wf b ->
  (exists e, sadd a b = Err e) <-> MAXU <= Z.abs (toZ a + toZ b).
Proof.
  unfold wf, sadd, toZ; intros Ha Hb.
  destruct (sneg a), (sneg b); try destr_if; zb; unfold cadd, csub;
    rewrite guard_err_iff, ?Z.ltb_ge, ?Z.leb_gt; lia.
Qed.

Lemma sadd_toZ a b r : wf a -> wf b -> sadd a b = Ok r -> toZ r = toZ a + toZ b /\ wf r /\ canon r.
Proof. intros Ha Hb H. apply (ok_wf _ _ _ (sadd_err_iff a b Ha Hb) H), sadd_toZ0; auto using wf_wf0. Qed.

(* checked_add differs from Add only in which branch takes equal magnitudes of opposite
   sign, and both branches return +0 there *)
Lemma schecked_add_eq a b : schecked_add a b = sadd a b.
Proof.
  unfold schecked_add, sadd. destruct (sneg a), (sneg b); try reflexivity.
  destruct (Z.ltb_spec (sval b) (sval a)), (Z.leb_spec (sval b) (sval a)); try reflexivity; try lia.
  replace (sval b) with (sval a) by lia. unfold csub. rewrite Z.leb_refl, Z.sub_diag. reflexivity.
Qed.

Lemma schecked_add_toZ0 a b r : wf0 a -> wf0 b -> schecked_add a b = Ok r -> toZ r = toZ a + toZ b /\ wf0 r /\ canon r.
Proof. rewrite schecked_add_eq. apply sadd_toZ0. Qed.

Lemma sinvert_toZ a : toZ (sinvert a) = - toZ a.
Proof. unfold sinvert, toZ; destruct a as [v []]; cbn; destruct (Z.eqb_spec v 0); cbn; lia. Qed.
Lemma sinvert_wf a : wf a -> wf (sinvert a).
Proof. exact (fun H => H). Qed.
Lemma sinvert_wf0 a : wf0 a -> wf0 (sinvert a).
Proof. exact (fun H => H). Qed.
Lemma sabs_canon a : canon (sabs a).
Proof. unfold canon; cbn; discriminate. Qed.

Lemma ssub_toZ0 a b r : wf0 a -> wf0 b -> ssub a b = Ok r -> toZ r = toZ a - toZ b /\ wf0 r /\ canon r.
Proof.
  unfold ssub; intros Ha Hb H. apply sadd_toZ0 in H; auto.
  rewrite sinvert_toZ in H. exact H.
Qed.

Lemma ssub_err_iff a b : wf a -> wf b ->
  (exists e, ssub a b = Err e) <-> MAXU <= Z.abs (toZ a - toZ b).
Proof.
  unfold ssub; intros Ha Hb. rewrite sadd_err_iff, sinvert_toZ by auto. reflexivity.
Qed.

Lemma ssub_toZ a b r : wf a -> wf b -> ssub a b = Ok r -> toZ r = toZ a - toZ b /\ wf r /\ canon r.
Proof. intros Ha Hb H. apply (ok_wf _ _ _ (ssub_err_iff a b Ha Hb) H), ssub_toZ0; auto using wf_wf0. Qed.

(* checked_sub is checked_add with the subtrahend's flag flipped as it stands, zero or not *)
Definition sflip (a : sint) : sint := mkS (sval a) (negb (sneg a)).
Lemma sflip_toZ a : toZ (sflip a) = - toZ a.
Proof. destruct a as [v []]; cbn; lia. Qed.
Lemma schecked_sub_flip a b : schecked_sub a b = sadd a (sflip b).
Proof. rewrite <- schecked_add_eq. destruct a as [? []], b as [? []]; reflexivity. Qed.

Lemma schecked_sub_toZ0 a b r : wf0 a -> wf0 b -> schecked_sub a b = Ok r -> toZ r = toZ a - toZ b /\ wf0 r /\ canon r.
Proof.
  rewrite schecked_sub_flip; intros Ha Hb H. apply sadd_toZ0 in H; auto.
  rewrite sflip_toZ in H. exact H.
Qed.

Lemma schecked_sub_err_iff a b : wf a -> wf b ->
  (exists e, schecked_sub a b = Err e) <-> MAXU <= Z.abs (toZ a - toZ b).
Proof.
  rewrite schecked_sub_flip; intros Ha Hb. rewrite sadd_err_iff, sflip_toZ by auto. reflexivity.
Qed.

Lemma canon_toZ_eq r r' : wf0 r -> wf0 r' -> canon r -> canon r' -> toZ r = toZ r' -> r = r'.
Proof.
  unfold wf0, canon, toZ. destruct r as [v []], r' as [v' []]; cbn; intros Hr Hr' Cr Cr' E;
  try (specialize (Cr eq_refl)); try (specialize (Cr' eq_refl)); try (f_equal; lia); lia.
Qed.

Lemma sign_of_product_canon a b v : canon (sign_of_product a b v).
Proof. unfold sign_of_product; destruct (Bool.eqb _ _); auto using sneg_canon, spos_canon. Qed.

Lemma sign_of_product_toZ a b v :
  toZ (sign_of_product a b v) = if Bool.eqb (sneg a) (sneg b) then v else - v.
Proof. unfold sign_of_product; destruct (Bool.eqb _ _); [reflexivity | apply sneg_toZ]. Qed.

Lemma sign_of_product_val a b v : sval (sign_of_product a b v) = v.
Proof. unfold sign_of_product; destruct (Bool.eqb _ _); reflexivity. Qed.

Lemma smul_toZ0 a b r : wf0 a -> wf0 b -> smul a b = Ok r -> toZ r = toZ a * toZ b /\ wf0 r /\ canon r.
Proof.
  unfold wf0, smul; intros Ha Hb H. inv_bind H. inv_ok. arith_ok. subst.
  split; [| split; [| apply sign_of_product_canon]].
  - rewrite sign_of_product_toZ. unfold toZ. destruct (sneg a), (sneg b); cbn; lia.
  - unfold wf0. rewrite sign_of_product_val. nia.
Qed.

Lemma smul_err_iff a b : wf a -> wf b ->
  (exists e, smul a b = Err e) <-> MAXU <= Z.abs (toZ a * toZ b).
Proof.
  unfold wf, smul, cmul; intros Ha Hb. rewrite guard_err_iff, Z.ltb_ge.
  replace (Z.abs (toZ a * toZ b)) with (sval a * sval b); [reflexivity|].
  unfold toZ; destruct (sneg a), (sneg b); nia.
Qed.

Lemma smul_toZ a b r : wf a -> wf b -> smul a b = Ok r -> toZ r = toZ a * toZ b /\ wf r /\ canon r.
Proof. intros Ha Hb H. apply (ok_wf _ _ _ (smul_err_iff a b Ha Hb) H), smul_toZ0; auto using wf_wf0. Qed.

Lemma schecked_mul_eq a b : schecked_mul a b = smul a b.
Proof. reflexivity. Qed.
Lemma schecked_div_eq a b : schecked_div a b = sdiv a b.
Proof. reflexivity. Qed.

Lemma sdiv_toZ0 a b r : wf0 a -> wf0 b -> sdiv a b = Ok r -> toZ r = Z.quot (toZ a) (toZ b) /\ wf0 r /\ canon r.
Proof.
  unfold wf0, sdiv; intros Ha Hb H. inv_bind H. inv_ok. arith_ok. subst.
  split; [| split; [| apply sign_of_product_canon]].
  - rewrite sign_of_product_toZ. unfold toZ. destruct (sneg a), (sneg b); cbn;
    rewrite ?Z.quot_opp_l, ?Z.quot_opp_r, ?Z.opp_involutive by lia;
    rewrite Z.quot_div_nonneg by lia; lia.
  - unfold wf0. rewrite sign_of_product_val. apply Z.div_pos; lia.
Qed.

Lemma quot_abs_le x y : Z.abs (x ÷ y) <= Z.abs x.
Proof.
  destruct (Z.eq_dec y 0) as [->|Hy]; [rewrite Z.quot_0_r_ext by reflexivity; lia|].
  rewrite <- Z.quot_abs by exact Hy. apply Z.quot_le_upper_bound; nia.
Qed.

Lemma sdiv_toZ a b r : wf a -> wf b -> sdiv a b = Ok r -> toZ r = Z.quot (toZ a) (toZ b) /\ wf r /\ canon r.
Proof.
  intros Ha Hb H. destruct (sdiv_toZ0 a b r) as (Hz & H0 & Hc); auto using wf_wf0.
  refine (conj Hz (conj (conj H0 _) Hc)).
  rewrite (wf0_toZ_abs r H0), Hz. apply Z.le_lt_trans with (Z.abs (toZ a)).
  - apply quot_abs_le.
  - rewrite <- wf0_toZ_abs by auto using wf_wf0. apply Ha.
Qed.

Lemma sdiv_err_iff a b : (exists e, sdiv a b = Err e) <-> toZ b = 0.
Proof.
  unfold sdiv, cdiv. rewrite <- if_negb, guard_err_iff.
  rewrite negb_false_iff, Z.eqb_eq. unfold toZ. destruct (sneg b); lia.
Qed.

Lemma s_is_negative_toZ0 a : wf0 a -> s_is_negative a = (toZ a <? 0).
Proof.
  unfold wf0, s_is_negative, toZ. destruct a as [v []]; cbn; intros H;
  destruct (Z.eqb_spec v 0); cbn; symmetry; [apply Z.ltb_ge | apply Z.ltb_lt | apply Z.ltb_ge | apply Z.ltb_ge]; lia.
Qed.

Lemma s_is_zero_toZ a : s_is_zero a = (toZ a =? 0).
Proof.
  unfold s_is_zero, toZ. destruct (sneg a); auto.
  destruct (Z.eqb_spec (sval a) 0), (Z.eqb_spec (- sval a) 0); auto; lia.
Qed.

Lemma scmp_toZ0 a b : wf0 a -> wf0 b -> scmp a b = (toZ a ?= toZ b).
Proof.
  intros Ha Hb. unfold scmp, s_is_positive.
  rewrite !s_is_negative_toZ0, (wf0_toZ_abs a), (wf0_toZ_abs b) by auto.
  destruct (Z.ltb_spec (toZ a) 0), (Z.ltb_spec (toZ b) 0); cbn [andb negb]; symmetry.
  - rewrite !Z.abs_neq by lia. symmetry. apply Z.compare_opp.
  - apply Z.compare_lt_iff; lia.
  - apply Z.compare_gt_iff; lia.
  - rewrite !Z.abs_eq by lia. reflexivity.
Qed.

Lemma sltb_toZ0 a b : wf0 a -> wf0 b -> sltb a b = (toZ a <? toZ b).
Proof. intros; unfold sltb; rewrite scmp_toZ0 by auto; reflexivity. Qed.
Lemma sgtb_toZ0 a b : wf0 a -> wf0 b -> sgtb a b = (toZ b <? toZ a).
Proof. intros; unfold sgtb; rewrite scmp_toZ0 by auto; apply Z.gtb_ltb. Qed.

Lemma sltb_toZ a b : wf a -> wf b -> sltb a b = (toZ a <? toZ b).
Proof. auto using sltb_toZ0, wf_wf0. Qed.
Lemma sgtb_toZ a b : wf a -> wf b -> sgtb a b = (toZ b <? toZ a).
Proof. auto using sgtb_toZ0, wf_wf0. Qed.
Lemma sgtb_spos0 a c : wf0 a -> 0 <= c -> sgtb a (spos c) = (c <? toZ a).
Proof. intros; apply (sgtb_toZ0 a (spos c)); auto. Qed.
Lemma sltb_spos0 a c : wf0 a -> 0 <= c -> sltb a (spos c) = (toZ a <? c).
Proof. intros; apply (sltb_toZ0 a (spos c)); auto. Qed.

Lemma N_to_uint_nonnil n : N.to_uint n <> Decimal.Nil.
Proof. destruct n; cbn; [discriminate | apply DecimalPos.Unsigned.to_uint_nonnil]. Qed.

Lemma parse_digits_dec v : 0 <= v < MAXU -> parse_digits (dec_string v) = Ok v.
Proof.
  intros Hv. unfold parse_digits, dec_string.
  remember (N.to_uint (Z.to_N v)) as d eqn:Ed.
  assert (Hne : NilEmpty.string_of_uint d <> EmptyString).
  { destruct d; cbn; try discriminate.
    subst. pose proof (N_to_uint_nonnil (Z.to_N v)) as Hn. congruence. }
  destruct (NilEmpty.string_of_uint d) eqn:Es; [congruence|].
  rewrite <- Es. rewrite NilEmpty.usu. subst d. rewrite DecimalN.Unsigned.of_to.
  rewrite Z2N.id by lia. destruct (Z.ltb_spec v MAXU); [reflexivity | lia].
Qed.

Lemma dec_string_head v :
  exists c rest, dec_string v = String c rest /\ c <> "-"%char /\ c <> "+"%char.
Proof.
  unfold dec_string.
  pose proof (N_to_uint_nonnil (Z.to_N v)) as Hn.
  destruct (N.to_uint (Z.to_N v)); try congruence; cbn; eexists; eexists; (split; [reflexivity|]); split; discriminate.
Qed.

Lemma parse_u128_unsigned c s : c <> "+"%char -> parse_u128 (String c s) = parse_digits (String c s).
Proof. destruct c as [[] [] [] [] [] [] [] []]; try reflexivity. congruence. Qed.
Lemma s_from_str_unsigned c s : c <> "-"%char ->
  s_from_str (String c s) = do v <- parse_u128 (String c s); Ok (spos v).
Proof. destruct c as [[] [] [] [] [] [] [] []]; try reflexivity. congruence. Qed.

Lemma parse_u128_dec v : 0 <= v < MAXU -> parse_u128 (dec_string v) = Ok v.
Proof.
  intros Hv. destruct (dec_string_head v) as (c & rest & Hs & _ & Hp).
  rewrite Hs, parse_u128_unsigned, <- Hs by exact Hp. apply parse_digits_dec, Hv.
Qed.
Lemma s_from_str_dec v : 0 <= v < MAXU -> s_from_str (dec_string v) = Ok (spos v).
Proof.
  intros Hv. destruct (dec_string_head v) as (c & rest & Hs & Hm & _).
  rewrite Hs, s_from_str_unsigned, <- Hs, parse_u128_dec by assumption. reflexivity.
Qed.

(* Deserialize after Serialize is s_store: the value comes back, except that the raw
   negative zero comes back as +0 *)
Lemma from_str_to_string_store a : wf a -> s_from_str (s_to_string a) = Ok (s_store a).
Proof.
  intros Ha. unfold s_to_string, s_store. destruct a as [v []]; cbn [sval sneg andb] in *.
  - destruct (Z.eqb_spec v 0) as [->|Hv]; cbn [negb s_from_str].
    + reflexivity.
    + rewrite parse_u128_dec by exact Ha. cbn [bind]. unfold sneg_.
      destruct (Z.eqb_spec v 0); [contradiction | reflexivity].
  - rewrite s_from_str_dec by exact Ha. destruct (Z.eqb_spec v 0) as [->|]; reflexivity.
Qed.

Lemma seqb_refl a : seqb a a = true.
Proof. unfold seqb. rewrite Z.eqb_refl, eqb_reflx. reflexivity. Qed.

