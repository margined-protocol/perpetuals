(* Engine positions mirror the vAMM's net position (C02): for every vAMM the sum of the traders' signed sizes equals
   the vAMM's total_position_size.  Here: through a swap and its reply, and out of each execute arm; histories in MirrorReach. *)
From MP.Model Require Import Prelude U128 SInt Feed Vamm VammOps Token World Engine Runtime.
From MP.Proofs Require Import Tactics MapFacts SIntFacts VammFacts SwapFacts RuntimeFacts HandlerFacts ResidueFacts.

Definition sum_sizes (l : list (addr * position)) : Z :=
  fold_right (fun tp acc => toZ (p_size (snd tp)) + acc) 0 l.

Definition size_at (t : addr) (l : list (addr * position)) : Z :=
  match zfind t l with Some p => toZ (p_size p) | None => 0 end.

Lemma sum_zset t p l : sum_sizes (zset t p l) = sum_sizes l - size_at t l + toZ (p_size p).
Proof.
  unfold size_at. induction l as [|[k q] r IH]; cbn [zset zfind sum_sizes fold_right snd].
  - lia.
  - destruct (t =? k) eqn:E; cbn [sum_sizes fold_right snd]; [lia|]. fold (sum_sizes (zset t p r)). fold (sum_sizes r). rewrite IH. lia.
Qed.

Lemma zfind_not_in {A} t (l : list (Z * A)) : ~ In t (map fst l) -> zfind t l = None.
Proof.
  induction l as [|[k q] r IH]; cbn; intros H; [reflexivity|].
  destruct (Z.eqb_spec t k); [subst; tauto|]. apply IH. tauto.
Qed.

Lemma sum_zdel t l : NoDup (map fst l) -> sum_sizes (zdel t l) = sum_sizes l - size_at t l.
Proof.
  unfold size_at. induction l as [|[k q] r IH]; cbn [zdel zfind sum_sizes fold_right snd map fst]; intros Hn; [lia|].
  inversion Hn as [|? ? Hni Hn']; subst.
  destruct (Z.eqb_spec t k).
  - subst. rewrite zdel_not_in by assumption. fold (sum_sizes r). lia.
  - cbn [sum_sizes fold_right snd]. fold (sum_sizes (zdel t r)). fold (sum_sizes r). rewrite IH by assumption. lia.
Qed.

Definition coherent (p : position) : Prop :=
  wf0 (p_size p) /\ match p_dir p with AddToAmm => 0 <= toZ (p_size p) | RemoveFromAmm => toZ (p_size p) <= 0 end.

Definition mirror (v : addr) (w : world) : Prop :=
  let l := positions_of (w_eng w) v in
  NoDup (map fst l) /\ Forall (fun tp => coherent (snd tp)) l /\
  forall vm, zfind v (w_vamms w) = Some vm -> wf0 (v_total (vs vm)) /\ sum_sizes l = toZ (v_total (vs vm)).

Lemma positions_store_same e v t p : positions_of (store_position e v t p) v = zset t p (positions_of e v).
Proof. unfold positions_of, store_position; cbn [e_pos]. rewrite zfind_zset_same. reflexivity. Qed.
Lemma positions_store_other e v t p v0 : v0 <> v -> positions_of (store_position e v t p) v0 = positions_of e v0.
Proof. intros H. unfold positions_of, store_position; cbn [e_pos]. rewrite zfind_zset_other by assumption. reflexivity. Qed.
Lemma positions_remove_same e v t : positions_of (remove_position e v t) v = zdel t (positions_of e v).
Proof. unfold positions_of, remove_position; cbn [e_pos]. rewrite zfind_zset_same. reflexivity. Qed.
Lemma positions_remove_other e v t v0 : v0 <> v -> positions_of (remove_position e v t) v0 = positions_of e v0.
Proof. intros H. unfold positions_of, remove_position; cbn [e_pos]. rewrite zfind_zset_other by assumption. reflexivity. Qed.

(* leaf messages: transfers and insurance-fund draws, never replied to on success *)
Definition is_leaf (m : msg) : bool :=
  match m with MTransfer _ _ | MTransferFrom _ _ _ | MIfWithdraw _ _ => true | _ => false end.
Definition leafy (s : submsg) : Prop := wants_ok (sm_reply s) = false /\ is_leaf (sm_msg s) = true.

Lemma noreply_leafy_transfer r a : leafy (execute_transfer r a). Proof. split; reflexivity. Qed.
Lemma noreply_leafy_transfer_from w o r a : leafy (execute_transfer_from w o r a).
Proof. unfold execute_transfer_from. destruct (t_native (w_tok w)); split; reflexivity. Qed.
Lemma noreply_leafy_ifw w a : leafy (execute_insurance_fund_withdrawal w a). Proof. split; reflexivity. Qed.
Lemma noreply_leafy_to_if w a : leafy (execute_transfer_to_insurance_fund w a). Proof. split; reflexivity. Qed.
Global Hint Resolve noreply_leafy_transfer noreply_leafy_transfer_from noreply_leafy_ifw noreply_leafy_to_if : lf.

Ltac leafy_goal := msgs_goal ltac:(auto with lf).

(* the base a swap returned, signed as the trade moves the position *)
Definition signed_out (s : side) (output : Z) : sint := match s with Buy => spos output | Sell => sneg_ output end.

Definition writes (w w' : world) (v t : addr) (p' : option position) : Prop :=
  positions_of (w_eng w') v = (match p' with Some p => zset t p | None => zdel t end) (positions_of (w_eng w) v) /\
  (forall u, u <> v -> positions_of (w_eng w') u = positions_of (w_eng w) u) /\
  w_vamms w' = w_vamms w.

Lemma writes_store w v t p : writes w (set_eng w (store_position (w_eng w) v t p)) v t (Some p).
Proof. split; [apply positions_store_same|split; [intros u; apply positions_store_other|reflexivity]]. Qed.
Lemma writes_remove w v t : writes w (set_eng w (remove_position (w_eng w) v t)) v t None.
Proof. split; [apply positions_remove_same|split; [intros u; apply positions_remove_other|reflexivity]]. Qed.
Lemma writes_find w w' v t p' : writes w w' v t p' -> find_position (w_eng w') v t = p'.
Proof. intros (H & _). unfold find_position. rewrite H. destruct p'; [apply zfind_zset_same|apply zfind_zdel_same]. Qed.

Lemma update_position_reply_shape w i o id w' subs tm :
  update_position_reply w i o id = Ok (w', subs) -> e_tmp (w_eng w) = Some tm ->
  let v := ts_vamm tm in let t := ts_trader tm in
  let p := get_position (w_eng w) (w_env w) v t (ts_side tm) in
  exists p', writes w w' v t (Some p') /\
    sadd (p_size p) (signed_out (ts_side tm) o) = Ok (p_size p') /\
    p_dir p' = (if id =? INCREASE_ID then side_to_direction (ts_side tm) else p_dir p) /\
    (id <> INCREASE_ID -> sgtb (sabs (signed_out (ts_side tm) o)) (sabs (p_size p)) = false).
Proof.
  intros H Htmp v t p. unfold update_position_reply, need_tmp in H. rewrite Htmp in H. cbn [bind] in H.
  fold v t in H. cbv zeta in H. fold p in H. fold (signed_out (ts_side tm) o) in H.
  arm H. eexists. split; [apply writes_store|]. cbn [p_size p_dir]. split; [reflexivity|].
  (* the arm branches on the reply id once: there the new direction is chosen and a reduction's size checked *)
  match goal with Hr : (if id =? INCREASE_ID then _ else _) = Ok _ |- _ => minv Hr; inv_ok end;
    (split; [reflexivity|intros Hid]); zb; [contradiction|assumption].
Qed.

Lemma partial_close_position_reply_shape w i o w' subs tm :
  partial_close_position_reply w i o = Ok (w', subs) -> e_tmp (w_eng w) = Some tm ->
  let v := ts_vamm tm in let t := ts_trader tm in
  let p := get_position (w_eng w) (w_env w) v t (ts_side tm) in
  exists p', writes w w' v t (Some p') /\
    sadd (p_size p) (signed_out (ts_side tm) o) = Ok (p_size p') /\ p_dir p' = p_dir p /\
    sgtb (sabs (signed_out (ts_side tm) o)) (sabs (p_size p)) = false.
Proof.
  intros H Htmp v t p. unfold partial_close_position_reply, need_tmp in H. rewrite Htmp in H. cbn [bind] in H.
  fold v t in H. cbv zeta in H. fold p in H. fold (signed_out (ts_side tm) o) in H.
  arm H. eexists. split; [apply writes_store|]. cbn [p_size p_dir]. repeat split. zb. assumption.
Qed.

(* a reversal stores the old position empty and, unless the remainder rounds to nothing, re-opens on the same side:
   the increase swap goes last, with a fresh in-flight record for the same position *)
Lemma reverse_position_reply_shape w i o w' subs tm :
  reverse_position_reply w i o = Ok (w', subs) -> e_tmp (w_eng w) = Some tm ->
  let v := ts_vamm tm in let t := ts_trader tm in
  let p := get_position (w_eng w) (w_env w) v t (ts_side tm) in
  writes w w' v t (Some (clear_position p (height (w_env w)))) /\
  (Forall leafy subs \/
   exists fees q, Forall leafy fees /\ subs = fees ++ [internal_increase_position v (ts_side tm) q 0] /\
     exists tm', e_tmp (w_eng w') = Some tm' /\ ts_vamm tm' = v /\ ts_trader tm' = t /\ ts_side tm' = ts_side tm).
Proof.
  intros H Htmp v t p.
  destruct (reverse_position_reply_spec _ _ _ _ _ _ H Htmp)
    as (st1 & fp & mg & bad & lat & fmsgs & spread & toll & x & _ & _ & Hf & _ & [[-> ->]|(q & sent & _ & -> & ->)]);
    (split; [apply writes_store|]); [left; leafy_goal|].
  right. exists fmsgs, q. split; [leafy_goal|]. split; [reflexivity|]. eexists. repeat split.
Qed.

Lemma close_position_reply_shape w i o w' subs tm :
  close_position_reply w i o = Ok (w', subs) -> e_tmp (w_eng w) = Some tm ->
  writes w w' (ts_vamm tm) (ts_trader tm) None.
Proof.
  intros H Htmp. unfold close_position_reply, need_tmp in H. rewrite Htmp in H. cbn [bind] in H.
  arm H; apply writes_remove.
Qed.

Lemma liquidate_reply_shape w i o w' subs tm :
  liquidate_reply w i o = Ok (w', subs) -> e_tmp (w_eng w) = Some tm ->
  writes w w' (ts_vamm tm) (ts_trader tm) None.
Proof.
  intros H Htmp. unfold liquidate_reply, need_tmp in H. rewrite Htmp in H. cbn [bind] in H.
  arm H; apply writes_remove.
Qed.

Lemma partial_liquidation_reply_shape w i o w' subs tm :
  partial_liquidation_reply w i o = Ok (w', subs) -> e_tmp (w_eng w) = Some tm ->
  let v := ts_vamm tm in let t := ts_trader tm in
  let p := get_position (w_eng w) (w_env w) v t (ts_side tm) in
  exists p', writes w w' v t (Some p') /\ p_dir p' = p_dir p /\
    (if sltb (p_size p) szero then sadd (p_size p) (spos i) else sadd (p_size p) (sneg_ i)) = Ok (p_size p').
Proof.
  intros H Htmp v t p. unfold partial_liquidation_reply, need_tmp in H. rewrite Htmp in H. cbn [bind] in H.
  fold v t in H. cbv zeta in H. fold p in H.
  arm H; eexists; (split; [apply writes_store|]); cbn [p_size p_dir]; split; reflexivity.
Qed.

Lemma pay_funding_reply_shape w pf a w' subs :
  pay_funding_reply w pf a = Ok (w', subs) ->
  (forall u, positions_of (w_eng w') u = positions_of (w_eng w) u) /\ w_vamms w' = w_vamms w.
Proof.
  unfold pay_funding_reply. intros H. arm H.
  match goal with Ha : append_cumulative_premium_fraction _ _ _ = Ok _ |- _ => apply append_cpf_vmap in Ha as [m ->] end.
  split; reflexivity.
Qed.

Lemma update_position_reply_leafy w i o id w' subs : update_position_reply w i o id = Ok (w', subs) -> Forall leafy subs.
Proof. unfold update_position_reply. intros H. arm H; leafy_goal. Qed.
Lemma close_position_reply_leafy w i o w' subs : close_position_reply w i o = Ok (w', subs) -> Forall leafy subs.
Proof. unfold close_position_reply. intros H. arm H; leafy_goal. Qed.
Lemma partial_close_position_reply_leafy w i o w' subs : partial_close_position_reply w i o = Ok (w', subs) -> Forall leafy subs.
Proof. unfold partial_close_position_reply. intros H. arm H; leafy_goal. Qed.
Lemma liquidate_reply_leafy w i o w' subs : liquidate_reply w i o = Ok (w', subs) -> Forall leafy subs.
Proof. unfold liquidate_reply. intros H. arm H; leafy_goal. Qed.
Lemma partial_liquidation_reply_leafy w i o w' subs : partial_liquidation_reply w i o = Ok (w', subs) -> Forall leafy subs.
Proof. unfold partial_liquidation_reply. intros H. arm H; leafy_goal. Qed.
Lemma pay_funding_reply_leafy w pf a w' subs : pay_funding_reply w pf a = Ok (w', subs) -> Forall leafy subs.
Proof. unfold pay_funding_reply. intros H. arm H; leafy_goal. Qed.

Lemma size_at_get e en v t s : toZ (p_size (get_position e en v t s)) = size_at t (positions_of e v).
Proof. unfold get_position, find_position, size_at. destruct (zfind t (positions_of e v)); reflexivity. Qed.

Lemma coherent_get v w t s : mirror v w -> coherent (get_position (w_eng w) (w_env w) v t s).
Proof.
  intros (_ & Hf & _). unfold get_position, find_position.
  destruct (zfind t (positions_of (w_eng w) v)) as [p|] eqn:E.
  - apply (forall_zfind _ _ _ _ Hf E).
  - unfold coherent, wf0. cbn. destruct (side_to_direction s); lia.
Qed.

Lemma coherent_abs p : coherent p ->
  match p_dir p with AddToAmm => toZ (p_size p) = sval (p_size p) | RemoveFromAmm => toZ (p_size p) = - sval (p_size p) end.
Proof.
  intros [Hw Hs]. unfold wf0 in Hw. unfold toZ in *. destruct (p_dir p), (sneg (p_size p)); lia.
Qed.

Definition new_size (p' : option position) : Z := match p' with Some p => toZ (p_size p) | None => 0 end.

(* the engine's swap on vAMM v followed by a reply that writes trader t's position there: the invariant of any
   other vAMM is untouched, and that of v holds again if the position's size has moved by what the vAMM's total
   has.  p is the position as the reply arm reads it. *)
Lemma mirror_swap v0 w v t s vm vm' p' w2 :
  mirror v0 w -> zfind v (w_vamms w) = Some vm -> writes (set_vamm w v vm') w2 v t p' ->
  (forall p, p = get_position (w_eng w) (w_env w) v t s -> coherent p -> wf0 (v_total (vs vm)) ->
   wf0 (v_total (vs vm')) /\ toZ (v_total (vs vm')) - toZ (v_total (vs vm)) = new_size p' - toZ (p_size p) /\
   match p' with Some x => coherent x | None => True end) ->
  mirror v0 w2.
Proof.
  intros Hm Hz (Wp & Wo & Wv) Hd. pose proof Hm as (Hn & Hf & Ht). unfold mirror. rewrite Wv.
  cbn [set_vamm w_vamms w_eng] in *. destruct (Z.eq_dec v0 v) as [->|Hne].
  - destruct (Ht vm Hz) as [Hwt Hs]. destruct (Hd _ eq_refl (coherent_get v w t s Hm) Hwt) as (Hwt' & Hdt & Hc).
    rewrite size_at_get in Hdt. rewrite Wp. split; [|split].
    + destruct p'; [apply nodup_zset | apply nodup_zdel]; assumption.
    + destruct p'; [apply forall_zset | apply forall_zdel]; assumption.
    + intros vm0 Hz0. rewrite zfind_zset_same in Hz0. injection Hz0 as <-. split; [assumption|].
      destruct p'; cbn [new_size] in Hdt; [rewrite sum_zset | rewrite sum_zdel by assumption]; lia.
  - rewrite (Wo v0 Hne). split; [assumption|split; [assumption|]].
    intros vm0 Hz0. rewrite zfind_zset_other in Hz0 by assumption. auto.
Qed.

Lemma coherent_read v w t : mirror v w -> coherent (read_position (w_eng w) v t).
Proof.
  intros (_ & Hf & _). unfold read_position, find_position.
  destruct (zfind t (positions_of (w_eng w) v)) as [p|] eqn:E.
  - apply (forall_zfind _ _ _ _ Hf E).
  - unfold coherent, wf0. cbn. lia.
Qed.

Lemma size_at_read e v t : toZ (p_size (read_position e v t)) = size_at t (positions_of e v).
Proof. unfold read_position, find_position, size_at. destruct (zfind t (positions_of e v)); reflexivity. Qed.

Lemma mirror_store_same v0 w v t p' :
  mirror v0 w -> mirror v w ->
  p_size p' = p_size (read_position (w_eng w) v t) -> p_dir p' = p_dir (read_position (w_eng w) v t) ->
  mirror v0 (set_eng w (store_position (w_eng w) v t p')).
Proof.
  intros (Hn & Hf & Ht) Hv Hs Hd. pose proof (coherent_read v w t Hv) as Hc. unfold mirror. cbn [w_eng set_eng w_vamms].
  destruct (Z.eq_dec v0 v) as [->|Hne].
  - rewrite positions_store_same. split; [apply nodup_zset; assumption|split; [apply forall_zset; [assumption|]|]].
    + unfold coherent in *. cbn [snd]. rewrite Hs, Hd. exact Hc.
    + intros vm Hz. destruct (Ht vm Hz) as [Hw Hsum]. split; [assumption|]. rewrite sum_zset, Hs, size_at_read. lia.
  - rewrite positions_store_other by assumption. auto.
Qed.

Lemma mirror_pos v0 w w1 :
  (forall u, positions_of (w_eng w1) u = positions_of (w_eng w) u) -> w_vamms w1 = w_vamms w ->
  mirror v0 w -> mirror v0 w1.
Proof. intros Hp Hv H. unfold mirror in *. rewrite Hp, Hv. exact H. Qed.

Lemma mirror_vamm_total v0 w v vm vm' :
  mirror v0 w -> zfind v (w_vamms w) = Some vm -> v_total (vs vm') = v_total (vs vm) ->
  mirror v0 (set_vamm w v vm').
Proof.
  intros (Hn & Hf & Ht) Hz He. unfold mirror. cbn [w_eng set_vamm w_vamms]. split; [assumption|split; [assumption|]].
  intros vm0 Hz0. destruct (Z.eq_dec v0 v) as [->|Hne].
  - rewrite zfind_zset_same in Hz0. injection Hz0 as <-. rewrite He. auto.
  - rewrite zfind_zset_other in Hz0 by assumption. auto.
Qed.

(* what must hold when a replying swap is about to run *)
Definition pend (v0 : addr) (w : world) (m : msg) (id : Z) : Prop :=
  mirror v0 w /\
  ((id = PAY_FUNDING_ID /\ exists a, m = MSettleFunding a) \/
   exists tm, e_tmp (w_eng w) = Some tm /\
     let v := ts_vamm tm in let t := ts_trader tm in
     let p := get_position (w_eng w) (w_env w) v t (ts_side tm) in
     ((id = INCREASE_ID /\ (exists q l c, m = MSwapInput v (side_to_direction (ts_side tm)) q l c) /\
         (toZ (p_size p) = 0 \/ p_dir p = side_to_direction (ts_side tm))) \/
      (id = DECREASE_ID /\ (exists q l c, m = MSwapInput v (side_to_direction (ts_side tm)) q l c) /\
         p_dir p = flip (side_to_direction (ts_side tm))) \/
      (id = PARTIAL_CLOSE_ID /\ (exists b l, m = MSwapOutput v (p_dir p) b l /\ 0 <= b) /\
         ts_side tm = position_to_side (p_size p)) \/
      ((id = REVERSE_ID \/ id = CLOSE_ID \/ id = LIQUIDATION_ID) /\
         exists l, m = MSwapOutput v (p_dir p) (sval (p_size p)) l) \/
      (id = PARTIAL_LIQUIDATION_ID /\
         exists b l, m = MSwapOutput v (p_dir p) b l /\ 0 <= b <= sval (p_size p) /\ sval (p_size p) <> 0))).

(* the lists the engine emits: leaves, then at most one replying swap, which comes last (readyg in PendingFacts) *)
Fixpoint readym (v0 : addr) (w : world) (subs : list submsg) : Prop :=
  match subs with
  | [] => mirror v0 w
  | s :: rest =>
      if wants_ok (sm_reply s) then rest = [] /\ sm_reply s = RAlways /\ pend v0 w (sm_msg s) (sm_id s)
      else is_leaf (sm_msg s) = true /\ readym v0 w rest
  end.

Lemma readym_leafy_app v0 w l1 l2 : Forall leafy l1 -> (readym v0 w (l1 ++ l2) <-> readym v0 w l2).
Proof.
  induction l1 as [|s l IH]; intros H; cbn [app readym]; [tauto|].
  inversion H as [|? ? [Hs1 Hs2] Hl]; subst. rewrite Hs1. rewrite IH by assumption. tauto.
Qed.
Lemma readym_leafy v0 w l : Forall leafy l -> (readym v0 w l <-> mirror v0 w).
Proof. intros H. rewrite <- (app_nil_r l). rewrite readym_leafy_app by assumption. cbn. tauto. Qed.

Lemma signed_out_facts s ba : 0 <= ba ->
  wf0 (signed_out s ba) /\ sval (signed_out s ba) = ba /\
  toZ (signed_out s ba) = match side_to_direction s with AddToAmm => ba | RemoveFromAmm => - ba end.
Proof.
  intros H. destruct s; cbn [signed_out side_to_direction].
  - repeat split; auto using spos_wf0.
  - repeat split; auto using sneg_wf0. apply sneg_toZ.
Qed.

Lemma sgtb_abs_false a b : wf0 a -> wf0 b -> sgtb (sabs a) (sabs b) = false -> sval a <= sval b.
Proof.
  intros Ha Hb H. change (sabs a) with (spos (sval a)) in H. change (sabs b) with (spos (sval b)) in H.
  rewrite sgtb_spos0 in H by (auto using spos_wf0). rewrite toZ_spos in H. apply Z.ltb_ge in H. exact H.
Qed.

Lemma swap_out_total vm e s p b l vm' qa ba :
  swap_output vm e s (p_dir p) b l = Ok (vm', (qa, ba)) -> coherent p -> 0 <= b <= sval (p_size p) ->
  wf0 (v_total (vs vm)) ->
  wf0 (v_total (vs vm')) /\ toZ (v_total (vs vm')) = toZ (v_total (vs vm)) - (if toZ (p_size p) <? 0 then - b else b).
Proof.
  intros H Hc Hb Hw. pose proof (coherent_abs p Hc) as Ha. apply swap_output_total in H; [|exact Hw|lia].
  destruct H as (_ & Hw' & ->). split; [exact Hw'|]. destruct (p_dir p), (Z.ltb_spec (toZ (p_size p)) 0); lia.
Qed.

Lemma pair_mirror v0 w m id w1 ev w2 subs :
  pend v0 w m id ->
  exec_simple w A_ENGINE m = Ok (w1, ev) ->
  contract_reply w1 A_ENGINE id (Ok ev) = Ok (w2, subs) ->
  readym v0 w2 subs.
Proof.
  intros [Hm Hp] Hex Hre. destruct Hp as [[-> [a ->]] | (tm & Htmp & Hcase)].
  - (* funding: settle_funding keeps the total, the reply keeps every position *)
    cbn [exec_simple] in Hex. arm Hex.
    match goal with Hs : settle_funding _ _ _ _ = Ok _ |- _ => apply settle_funding_frame in Hs; destruct Hs as (_ & _ & _ & Ht & _) end.
    rewrite reply_pay_funding in Hre. apply readym_leafy; [exact (pay_funding_reply_leafy _ _ _ _ _ Hre)|].
    apply pay_funding_reply_shape in Hre. destruct Hre as [Hpos Hvm].
    eapply mirror_pos; [exact Hpos|exact Hvm|]. eapply mirror_vamm_total; eauto using get_vamm_find.
  - cbv zeta in Hcase.
    destruct Hcase as [(-> & (q & l & c & ->) & Hdir) | [(-> & (q & l & c & ->) & Hdir) | [(-> & (b & l & -> & Hb) & Hside) |
                       [(Hid & (l & ->)) | (-> & (b & l & -> & Hb & Hnz))]]]].
    + apply exec_swap_input in Hex. destruct Hex as (vm & vm' & qa & ba & Hz & Hsw & -> & ->).
      rewrite reply_increase in Hre. apply readym_leafy; [exact (update_position_reply_leafy _ _ _ _ _ _ Hre)|].
      destruct (update_position_reply_shape _ _ _ _ _ _ tm Hre Htmp) as (p' & Hw & Hadd & Hd' & _).
      eapply mirror_swap; [exact Hm|exact Hz|exact Hw|]. cbn [w_eng w_env set_vamm] in *.
      intros p Ep [Hcw Hcs] Hwt. rewrite <- Ep in *.
      destruct (swap_input_total _ _ _ _ _ _ _ _ _ _ Hsw Hwt) as (Hba & Hwt' & Hdt).
      destruct (signed_out_facts (ts_side tm) ba Hba) as (Hso & _ & Hso').
      apply sadd_toZ0 in Hadd; [|exact Hcw|exact Hso]. destruct Hadd as (Za & Wa & _).
      split; [exact Hwt'|]. split; [cbn [new_size]; lia|]. split; [exact Wa|]. rewrite Hd', Za, Hso', Z.eqb_refl.
      destruct (side_to_direction (ts_side tm)), Hdir as [H0|H0]; try rewrite H0 in Hcs; lia.
    + apply exec_swap_input in Hex. destruct Hex as (vm & vm' & qa & ba & Hz & Hsw & -> & ->).
      rewrite reply_decrease in Hre. apply readym_leafy; [exact (update_position_reply_leafy _ _ _ _ _ _ Hre)|].
      destruct (update_position_reply_shape _ _ _ _ _ _ tm Hre Htmp) as (p' & Hw & Hadd & Hd' & Hle).
      eapply mirror_swap; [exact Hm|exact Hz|exact Hw|]. cbn [w_eng w_env set_vamm] in *.
      intros p Ep Hc Hwt. rewrite <- Ep in *.
      pose proof (coherent_abs p Hc) as Hab. destruct Hc as [Hcw Hcs].
      destruct (swap_input_total _ _ _ _ _ _ _ _ _ _ Hsw Hwt) as (Hba & Hwt' & Hdt).
      destruct (signed_out_facts (ts_side tm) ba Hba) as (Hso & Hsv & Hso').
      apply sgtb_abs_false in Hle; [|exact Hso|exact Hcw|discriminate]. rewrite Hsv in Hle.
      apply sadd_toZ0 in Hadd; [|exact Hcw|exact Hso]. destruct Hadd as (Za & Wa & _).
      split; [exact Hwt'|]. split; [cbn [new_size]; lia|]. split; [exact Wa|]. rewrite Hd', Za, Hso'.
      change (DECREASE_ID =? INCREASE_ID) with false. cbv iota. rewrite Hdir in *. destruct (side_to_direction (ts_side tm)); cbn [flip] in *; lia.
    + (* partial close: the side recorded is the one that reduces p *)
      apply exec_swap_output in Hex. destruct Hex as (vm & vm' & qa & ba & Hz & Hsw & -> & ->).
      destruct (swap_output_quote _ _ _ _ _ _ _ _ _ Hsw) as [-> _].
      rewrite reply_partial_close in Hre. apply readym_leafy; [exact (partial_close_position_reply_leafy _ _ _ _ _ Hre)|].
      destruct (partial_close_position_reply_shape _ _ _ _ _ tm Hre Htmp) as (p' & Hw & Hadd & Hd' & Hle).
      eapply mirror_swap; [exact Hm|exact Hz|exact Hw|]. cbn [w_eng w_env set_vamm] in *.
      intros p Ep Hc Hwt. rewrite <- Ep in *.
      destruct (signed_out_facts (ts_side tm) b Hb) as (Hso & Hsv & Hso').
      apply sgtb_abs_false in Hle; [|exact Hso|apply Hc]. rewrite Hsv in Hle.
      destruct (swap_out_total _ _ _ _ _ _ _ _ _ Hsw Hc (conj Hb Hle) Hwt) as (Hwt' & Hdt).
      apply sadd_toZ0 in Hadd; [|apply Hc|exact Hso]. destruct Hadd as (Za & Wa & _).
      split; [exact Hwt'|]. cbn [new_size]. unfold coherent. rewrite Hd', Za, Hso', Hdt, Hside. unfold position_to_side.
      rewrite (sgtb_spos0 _ 0) by (apply Hc || lia). destruct Hc as [Hcw Hcs]. apply wf0_toZ_abs in Hcw.
      destruct (Z.ltb_spec 0 (toZ (p_size p))), (Z.ltb_spec (toZ (p_size p)) 0), (p_dir p); cbn [side_to_direction];
        repeat split; try assumption; lia.
    + (* reverse / close / full liquidation: the whole position is swapped out *)
      apply exec_swap_output in Hex. destruct Hex as (vm & vm' & qa & ba & Hz & Hsw & -> & ->).
      assert (Hstep : forall p', writes (set_vamm w (ts_vamm tm) vm') w2 (ts_vamm tm) (ts_trader tm) p' -> new_size p' = 0 ->
                        match p' with Some x => coherent x | None => True end -> mirror v0 w2).
      { intros p' Hw Hns Hco. eapply mirror_swap; [exact Hm|exact Hz|exact Hw|]. intros p Ep Hc Hwt. rewrite <- Ep in Hsw.
        pose proof Hc as [Hcw _]. destruct (swap_out_total _ _ _ _ _ _ _ _ _ Hsw Hc (conj Hcw (Z.le_refl _)) Hwt) as (Hwt' & Hdt).
        apply wf0_toZ_abs in Hcw. split; [exact Hwt'|]. split; [|exact Hco]. rewrite Hns, Hdt.
        destruct (Z.ltb_spec (toZ (p_size p)) 0); lia. }
      destruct Hid as [-> | [-> | ->]].
      * rewrite reply_reverse in Hre. destruct (reverse_position_reply_shape _ _ _ _ _ tm Hre Htmp) as (Hw & Hl).
        assert (Hmir : mirror v0 w2).
        { apply (Hstep _ Hw); [reflexivity|]. unfold coherent, clear_position, wf0; cbn. destruct (p_dir _); lia. }
        destruct Hl as [Hl | (fees & q & Hl & -> & tm' & Htm' & Hv' & Ht' & Hs')].
        -- apply readym_leafy; assumption.
        -- apply readym_leafy_app; [exact Hl|]. cbn [readym internal_increase_position swap_input_msg sm_reply wants_ok sm_msg sm_id].
           split; [reflexivity|split; [reflexivity|]]. split; [exact Hmir|]. right. exists tm'. split; [exact Htm'|].
           cbv zeta. left. split; [reflexivity|]. rewrite Hv', Hs'. split; [do 3 eexists; reflexivity|].
           left. rewrite Ht'. unfold get_position. rewrite (writes_find _ _ _ _ _ Hw). reflexivity.
      * rewrite reply_close in Hre. apply readym_leafy; [exact (close_position_reply_leafy _ _ _ _ _ Hre)|].
        exact (Hstep None (close_position_reply_shape _ _ _ _ _ tm Hre Htmp) eq_refl I).
      * rewrite reply_liquidation in Hre. apply readym_leafy; [exact (liquidate_reply_leafy _ _ _ _ _ Hre)|].
        exact (Hstep None (liquidate_reply_shape _ _ _ _ _ tm Hre Htmp) eq_refl I).
    + apply exec_swap_output in Hex. destruct Hex as (vm & vm' & qa & ba & Hz & Hsw & -> & ->).
      destruct (swap_output_quote _ _ _ _ _ _ _ _ _ Hsw) as [-> _].
      rewrite reply_partial_liquidation in Hre. apply readym_leafy; [exact (partial_liquidation_reply_leafy _ _ _ _ _ Hre)|].
      destruct (partial_liquidation_reply_shape _ _ _ _ _ tm Hre Htmp) as (p' & Hw & Hd' & Hadd).
      eapply mirror_swap; [exact Hm|exact Hz|exact Hw|]. cbn [w_eng w_env set_vamm] in *.
      intros p Ep Hc Hwt. rewrite <- Ep in *.
      destruct (swap_out_total _ _ _ _ _ _ _ _ _ Hsw Hc Hb Hwt) as (Hwt' & Hdt). destruct Hc as [Hcw Hcs], Hb as [Hb Hb'].
      rewrite (sltb_spos0 _ 0) in Hadd by (assumption || lia).
      assert (Hnew : wf0 (p_size p') /\ toZ (p_size p') = toZ (p_size p) - (if toZ (p_size p) <? 0 then - b else b)).
      { destruct (toZ (p_size p) <? 0); apply sadd_toZ0 in Hadd; auto using spos_wf0, sneg_wf0;
        rewrite ?toZ_spos, ?sneg_toZ in Hadd; (split; [tauto|lia]). }
      destruct Hnew as [Wn Zn]. apply wf0_toZ_abs in Hcw.
      split; [exact Hwt'|]. split; [cbn [new_size]; lia|]. split; [exact Wn|]. rewrite Hd', Zn. revert Hcs.
      destruct (p_dir p), (Z.ltb_spec (toZ (p_size p)) 0); lia.
Qed.

(* worlds that differ only in what leaf messages write: balances, the fund's and the pool's state *)
Definition same_core (w w1 : world) : Prop := w_eng w1 = w_eng w /\ w_vamms w1 = w_vamms w /\ w_env w1 = w_env w.

Lemma same_core_refl w : same_core w w. Proof. repeat split. Qed.
Lemma same_core_trans a b c : same_core a b -> same_core b c -> same_core a c.
Proof. unfold same_core. intros (A1 & A2 & A3) (B1 & B2 & B3). repeat split; congruence. Qed.

Lemma mirror_core v0 w w1 : same_core w w1 -> mirror v0 w -> mirror v0 w1.
Proof. intros (E1 & E2 & E3) H. unfold mirror in *. rewrite E1, E2. exact H. Qed.

Lemma pend_core v0 w w1 m id : same_core w w1 -> pend v0 w m id -> pend v0 w1 m id.
Proof.
  intros Hc [Hm Hp]. split; [eapply mirror_core; eauto|]. destruct Hc as (E1 & E2 & E3).
  destruct Hp as [Hp|(tm & Htmp & Hcase)]; [left; exact Hp|]. right. exists tm. rewrite E1, E3. split; [exact Htmp|exact Hcase].
Qed.

Lemma exec_leaf_core w s m w' ev : exec_simple w s m = Ok (w', ev) -> is_leaf m = true -> same_core w w'.
Proof. intros H Hl. apply exec_simple_cases in H. destruct m; try discriminate Hl; destruct H as [t ->]; repeat split. Qed.

Lemma runs_leaf_core f w n c m w1 n1 ev : runs f w n c m w1 n1 ev -> is_leaf m = true -> same_core w w1.
Proof. destruct 1; intros Hl; eapply exec_leaf_core; eauto. Qed.

Lemma dispatched_leafy_core f w n c subs w' n' : dispatched f w n c subs w' n' -> Forall leafy subs -> same_core w w'.
Proof.
  intros H Hl. generalize (same_core_refl w). revert H Hl. apply (dispatched_quiet (fun m => is_leaf m = true) (same_core w)); [reflexivity|].
  intros w0 c0 m w1 ev Hm Hx Hc. exact (same_core_trans _ _ _ Hc (exec_leaf_core _ _ _ _ _ Hx Hm)).
Qed.

Lemma pend_is_swap v0 w m id : pend v0 w m id -> is_swap m = true.
Proof.
  intros [_ [[_ [a ->]]|(tm & _ & Hc)]]; [reflexivity|]. cbv zeta in Hc.
  destruct Hc as [(_ & (q & l & c & ->) & _) | [(_ & (q & l & c & ->) & _) | [(_ & (b & l & -> & _) & _) |
                  [(_ & (l & ->)) | (_ & (b & l & -> & _))]]]]; reflexivity.
Qed.

Lemma dir_side_inv d : side_to_direction (direction_to_side d) = d.
Proof. destruct d; reflexivity. Qed.

Lemma read_position_found e v t : sval (p_size (read_position e v t)) <> 0 ->
  find_position e v t = Some (read_position e v t).
Proof. unfold read_position. destruct (find_position e v t); [reflexivity|]. cbn. lia. Qed.

Lemma get_position_read e en v t s : sval (p_size (read_position e v t)) <> 0 -> get_position e en v t s = read_position e v t.
Proof. intros H. unfold get_position. rewrite (read_position_found _ _ _ H). reflexivity. Qed.

Definition plr_ok (w : world) : Prop :=
  0 < e_dec (ec (w_eng w)) /\ 0 <= e_plr (ec (w_eng w)) <= e_dec (ec (w_eng w)).

Definition mirror_all (w : world) : Prop := forall v, mirror v w.

Lemma get_set_tmp e x en v t s : get_position (eng_set_tmp e x) en v t s = get_position e en v t s. Proof. reflexivity. Qed.
Lemma get_set_sent e x en v t s : get_position (eng_set_sent e x) en v t s = get_position e en v t s. Proof. reflexivity. Qed.
Lemma get_set_liq e x en v t s : get_position (eng_set_liq e x) en v t s = get_position e en v t s. Proof. reflexivity. Qed.

(* the goal `readym v0 w' [swap]` where w' is w with a fresh in-flight record: down to the case of `pend` that
   describes the swap, stated about w *)
Ltac pend_setup Hm :=
  cbn [readym internal_increase_position swap_input_msg swap_output_msg sm_reply wants_ok sm_msg sm_id];
  split; [reflexivity|split; [reflexivity|]]; split; [exact Hm|];
  right; eexists; cbn [w_eng set_eng e_tmp eng_set_tmp eng_set_sent eng_set_liq]; (split; [reflexivity|]);
  cbn [ts_vamm ts_trader ts_side w_env set_eng]; rewrite ?get_set_sent, ?get_set_tmp, ?get_set_liq.

Lemma partial_size_bound w v t : mirror v w -> plr_ok w ->
  let z := sval (p_size (read_position (w_eng w) v t)) in 0 <= z * e_plr (ec (w_eng w)) / e_dec (ec (w_eng w)) <= z.
Proof.
  intros Hm (HD & Hp0 & Hp1) z. pose proof (coherent_read v w t Hm) as [Hcw _]. unfold wf0 in Hcw. fold z in Hcw.
  split; [apply Z.div_pos; nia|apply Z.div_le_upper_bound; nia].
Qed.

Lemma partial_liquidation_readym w v t l r :
  partial_liquidation w v t l = Ok r -> mirror_all w -> plr_ok w ->
  sval (p_size (read_position (w_eng w) v t)) <> 0 ->
  forall v0, readym v0 (fst r) [snd r].
Proof.
  intros H Hall Hplr Hnz v0. unfold partial_liquidation in H. arm H. arith_ok. subst. cbn [fst snd].
  pend_setup (Hall v0). rewrite (get_position_read _ _ _ _ _ Hnz), dir_side_inv.
  right. right. right. right. split; [reflexivity|]. do 2 eexists. split; [reflexivity|]. split; [|exact Hnz].
  apply (partial_size_bound w v t (Hall v) Hplr).
Qed.

(* an order on the position's own side, or on a flat position, increases it *)
Lemma is_increase_dir p s :
  if s_is_zero (p_size p) || (dir_eqb (p_dir p) AddToAmm && side_eqb s Buy) || (dir_eqb (p_dir p) RemoveFromAmm && side_eqb s Sell)
  then toZ (p_size p) = 0 \/ p_dir p = side_to_direction s else p_dir p = flip (side_to_direction s).
Proof. rewrite s_is_zero_toZ. destruct (Z.eqb_spec (toZ (p_size p)) 0), (p_dir p), s; cbn; auto. Qed.

Lemma engine_execute_readym w s m funds w1 subs :
  engine_execute w s m funds = Ok (w1, subs) -> mirror_all w -> plr_ok w ->
  forall v0, readym v0 w1 subs.
Proof.
  intros H Hall Hplr v0. pose proof (Hall v0) as Hm. destruct m; cbn [engine_execute] in H.
  1-4, 11: unfold e_update_config, e_update_pauser, e_add_whitelist, e_remove_whitelist, e_set_pause in H; arm H; exact Hm.
  - (* open: which swap is sent follows the position's direction *)
    destruct (open_position_shape _ _ _ _ _ _ _ _ _ _ H) as (pn & upnl & _ & -> & ->).
    match goal with |- context [if ?c then internal_increase_position _ _ _ _ else _] =>
      pose proof (is_increase_dir (get_position (w_eng w) (w_env w) vamm s s0) s0) as Hdir; destruct c end;
      [|match goal with |- context [if ?c then swap_input_msg _ _ _ _ _ _ else _] => destruct c end]; pend_setup Hm.
    + left. split; [reflexivity|]. split; [do 3 eexists; reflexivity|exact Hdir].
    + right. left. split; [reflexivity|]. split; [do 3 eexists; reflexivity|exact Hdir].
    + right. right. right. left. split; [left; reflexivity|]. eexists. rewrite dir_side_inv. reflexivity.
  - unfold e_close_position, internal_close_position in H. arm H; pend_setup Hm; zb.
    all: match goal with Hz : sval (p_size (read_position _ _ _)) <> 0 |- _ => rewrite (get_position_read _ _ _ _ _ Hz) end.
    + right; right; left. split; [reflexivity|]. split; [|reflexivity]. do 2 eexists. split; [rewrite dir_side_inv; reflexivity|].
      arith_ok. subst. apply (partial_size_bound w vamm s (Hall vamm) Hplr).
    + right; right; right; left. split; [right; left; reflexivity|]. eexists. rewrite dir_side_inv. reflexivity.
  - unfold e_liquidate, internal_close_position in H. arm H; zb.
    + match goal with Hp : partial_liquidation _ _ _ _ = Ok _, Hz : sval _ <> 0 |- _ =>
        exact (partial_liquidation_readym _ _ _ _ _ Hp Hall Hplr Hz v0) end.
    + pend_setup Hm.
      match goal with Hz : sval _ <> 0 |- context [get_position ?e ?en ?v ?t ?sd] => rewrite (get_position_read e en v t sd Hz) end.
      right; right; right; left. split; [right; right; reflexivity|]. eexists. rewrite dir_side_inv. reflexivity.
  - unfold e_pay_funding in H. arm H. cbn [readym sm_reply wants_ok sm_msg sm_id].
    split; [reflexivity|split; [reflexivity|]]. split; [exact Hm|]. left. split; [reflexivity|]. eexists; reflexivity.
  - (* deposit: margin changes, size and direction do not *)
    unfold e_deposit_margin in H. arm H. apply readym_leafy; [leafy_goal|].
    apply mirror_store_same; [exact Hm|exact (Hall vamm)| |]; unfold read_position;
      match goal with Hf : find_position _ _ _ = Some _ |- _ => rewrite Hf end; reflexivity.
  - unfold e_withdraw_margin in H. arm H. apply readym_leafy; [leafy_goal|].
    apply (mirror_store_same v0 w vamm s); [exact Hm|exact (Hall vamm)|reflexivity|reflexivity].
Qed.

Lemma exec_noswap_mirror v0 w s m w' ev :
  exec_simple w s m = Ok (w', ev) -> is_swap m = false -> mirror v0 w -> mirror v0 w'.
Proof.
  unfold exec_simple. intros H Hs Hm. destruct m; try discriminate Hs; arm H; [|exact Hm..].
  match goal with Ho : set_open _ _ _ _ = Ok _ |- _ => apply set_open_frame in Ho; destruct Ho as (_ & _ & _ & Ht & _) end.
  eapply mirror_vamm_total; eauto using get_vamm_find.
Qed.

(* every vAMM is wired to the margin engine; externally owned accounts are not the engine *)
Definition good_vamms (w : world) : Prop :=
  forall v vm, zfind v (w_vamms w) = Some vm -> v_engine (vc vm) = A_ENGINE.

Definition op_ext (o : op) : Prop :=
  match o with
  | OVamm s _ _ => s <> A_ENGINE
  | _ => True
  end.
