(* C04, third clause, through the whole message tree: in a trader-initiated transaction the insurance fund's balance
   never falls by more than the amount the engine records as prepaid bad debt in the same transaction.
   Potential: fund balance + recorded prepaid bad debt - draws still queued; it never decreases along the dispatch. *)
From MP.Model Require Import Prelude U128 SInt Feed Vamm VammOps Token World Engine Runtime.
From MP.Proofs Require Import Tactics MapFacts RuntimeFacts HandlerFacts ResidueFacts MirrorFacts CloseFacts FrameFacts FlowFacts.

Fixpoint draws (msgs : list submsg) : Z :=
  match msgs with
  | [] => 0
  | s :: rest => (match sm_msg s with MIfWithdraw _ amt => amt | _ => 0 end) + draws rest
  end.
Lemma draws_app l1 l2 : draws (l1 ++ l2) = draws l1 + draws l2.
Proof. induction l1 as [|s l IH]; cbn [draws app]; [lia|]. rewrite IH. lia. Qed.

(* a leaf message that cannot lower the fund's balance except by a non-negative draw *)
Definition okleaf (s : submsg) : Prop :=
  match sm_msg s with
  | MTransfer to amt => to = A_IFUND -> 0 <= amt
  | MTransferFrom owner to amt => owner <> A_IFUND /\ (to = A_IFUND -> 0 <= amt)
  | MIfWithdraw _ amt => 0 <= amt
  | _ => True
  end.

Definition fsum (w : world) : Z := bal (w_tok w) A_IFUND + e_bad_debt (es (w_eng w)).

Fixpoint readyF (pendF : world -> msg -> Z -> Prop) (w : world) (subs : list submsg) : Prop :=
  match subs with
  | [] => True
  | s :: rest =>
      if wants_ok (sm_reply s) then rest = [] /\ sm_reply s = RAlways /\ pendF w (sm_msg s) (sm_id s)
      else is_leaf (sm_msg s) = true /\ okleaf s /\ readyF pendF w rest
  end.

Definition pendF_closed (pendF : world -> msg -> Z -> Prop) : Prop :=
  forall w w1 m id, same_core w w1 -> pendF w m id -> pendF w1 m id.

Lemma readyF_core pendF w w1 subs : pendF_closed pendF -> same_core w w1 -> readyF pendF w subs -> readyF pendF w1 subs.
Proof.
  intros HP Hc. induction subs as [|s rest IH]; cbn [readyF]; [auto|].
  destruct (wants_ok (sm_reply s)).
  - intros (E & R & Q). split; [exact E|split; [exact R|eapply HP; eauto]].
  - intros (L & O & R). auto.
Qed.

Lemma readyF_leafy_app pendF w l1 l2 : Forall leafy l1 -> Forall okleaf l1 -> readyF pendF w l2 -> readyF pendF w (l1 ++ l2).
Proof.
  induction 1 as [|s l [Hs1 Hs2] Hl IH]; intros Ho Hr; cbn [readyF app]; [exact Hr|].
  inversion Ho; subst. rewrite Hs1. auto.
Qed.

Lemma readyF_leafy pendF w l : Forall leafy l -> Forall okleaf l -> readyF pendF w l.
Proof. intros Hl Ho. rewrite <- (app_nil_r l). apply readyF_leafy_app; [exact Hl|exact Ho|exact I]. Qed.

(* a leaf that runs leaves the recorded bad debt alone and takes from the fund at most what it draws *)
Lemma runs_leaf_floor f w n s w1 n1 ev :
  runs f w n A_ENGINE (sm_msg s) w1 n1 ev -> is_leaf (sm_msg s) = true -> okleaf s -> fsum w - draws [s] <= fsum w1.
Proof.
  intros Hr Hl Ho. destruct (runs_leaf_core _ _ _ _ _ _ _ _ Hr Hl) as (E & _). destruct (runs_leaf_flow _ _ _ _ _ _ _ _ Hr Hl) as [_ Hb].
  unfold fsum, okleaf in *. rewrite E, (Hb A_IFUND). cbn [flow draws]. unfold ind. destruct (sm_msg s); try discriminate Hl.
  - change (A_IFUND =? A_ENGINE) with false. destruct (Z.eqb_spec A_IFUND to) as [<-|]; [specialize (Ho eq_refl)|]; lia.
  - destruct Ho as [Ho1 Ho2]. destruct (Z.eqb_spec A_IFUND owner); [congruence|].
    destruct (Z.eqb_spec A_IFUND to) as [<-|]; [specialize (Ho2 eq_refl)|]; lia.
  - rewrite Z.eqb_refl. destruct (A_IFUND =? _); lia.
Qed.

Lemma dispatched_floor (pendF : world -> msg -> Z -> Prop) :
  pendF_closed pendF ->
  (forall w m id, pendF w m id -> is_swap m = true) ->
  (forall w m id w1 ev w2 subs, pendF w m id -> exec_simple w A_ENGINE m = Ok (w1, ev) ->
     contract_reply w1 A_ENGINE id (Ok ev) = Ok (w2, subs) ->
     readyF pendF w2 subs /\ e_bad_debt (es (w_eng w2)) = e_bad_debt (es (w_eng w)) + draws subs) ->
  forall f w n subs w' n',
    dispatched f w n A_ENGINE subs w' n' -> readyF pendF w subs -> fsum w - draws subs <= fsum w'.
Proof.
  intros HP Hswap Hpair f w n subs w' n' H Hr.
  (* the potential fsum - draws stays above its first value k *)
  set (k := fsum w - draws subs).
  enough (readyF pendF w' [] /\ k <= fsum w' - draws []) as [_ Hk] by (cbn [draws] in Hk; lia).
  generalize (conj Hr (Z.le_refl k)). revert H. apply (dispatched_ready (fun x l => readyF pendF x l /\ k <= fsum x - draws l)).
  - intros f0 w0 n0 s rest w1 n1 ev [HR Hk] Hw Hx. cbn [readyF] in HR. rewrite Hw in HR. destruct HR as (Hl & Ho & HR).
    split; [exact (readyF_core _ _ _ _ HP (runs_leaf_core _ _ _ _ _ _ _ _ Hx Hl) HR)|].
    pose proof (runs_leaf_floor _ _ _ _ _ _ _ Hx Hl Ho). cbn [draws] in *. lia.
  - intros f0 w0 n0 s rest w1 n1 ev w2 sb [HR Hk] Hw Hx Hc. cbn [readyF] in HR. rewrite Hw in HR. destruct HR as (-> & _ & Hp).
    split; [|auto]. pose proof (Hswap _ _ _ Hp) as Hs. destruct (runs_swap _ _ _ _ _ _ _ _ Hx Hs) as [Hx' _].
    destruct (Hpair _ _ _ _ _ _ _ Hp Hx' Hc) as [HR2 Hbd]. split; [exact HR2|].
    destruct (exec_swap_vc _ _ _ _ _ Hs Hx') as (v & vm & vm' & _ & -> & _).
    unfold fsum in *. rewrite Hbd, (contract_reply_tok _ _ _ _ _ _ Hc). cbn [draws] in Hk.
    destruct (sm_msg s); try discriminate Hs; cbn [w_tok set_vamm w_eng] in *; lia.
Qed.

Lemma dispatch_floor (pendF : world -> msg -> Z -> Prop) :
  pendF_closed pendF ->
  (forall w m id, pendF w m id -> is_swap m = true) ->
  (forall w m id w1 ev w2 subs, pendF w m id -> exec_simple w A_ENGINE m = Ok (w1, ev) ->
     contract_reply w1 A_ENGINE id (Ok ev) = Ok (w2, subs) ->
     readyF pendF w2 subs /\ e_bad_debt (es (w_eng w2)) = e_bad_debt (es (w_eng w)) + draws subs) ->
  forall fuel f w n subs w' n',
    dispatch fuel f w n A_ENGINE subs = Ok (w', n') -> readyF pendF w subs ->
    fsum w - draws subs <= fsum w'.
Proof. intros HP Hswap Hpair fuel f w n subs w' n' H. eapply dispatched_floor, dispatch_dispatched, H; assumption. Qed.

Definition fees_ok (w : world) : Prop :=
  forall v vm, zfind v (w_vamms w) = Some vm -> 0 <= v_spread (vc vm) /\ 0 <= v_toll (vc vm) /\ 0 < v_dec (vc vm).

Lemma okleaf_fees w from v n msgs sp tl :
  transfer_fees w from v n = Ok (msgs, sp, tl) -> 0 <= n -> fees_ok w -> from <> A_IFUND ->
  Forall okleaf msgs /\ draws msgs = 0.
Proof.
  intros H Hn Hf Hfr. apply transfer_fees_spec in H. destruct H as (vm & Hv & -> & -> & ->).
  unfold get_vamm in Hv. destruct (zfind v (w_vamms w)) as [vm0|] eqn:Ez; [|discriminate]. injection Hv as ->.
  destruct (Hf _ _ Ez) as (H1 & H2 & H3).
  assert (0 <= n * v_spread (vc vm) / v_dec (vc vm)) by (apply Z.div_pos; nia).
  assert (0 <= n * v_toll (vc vm) / v_dec (vc vm)) by (apply Z.div_pos; nia).
  unfold execute_transfer_from. split.
  - apply Forall_app; split; destr_if; repeat constructor; unfold okleaf; destruct (t_native (w_tok w)); cbn [sm_msg]; auto.
  - rewrite draws_app. repeat destr_if; cbn [draws sm_msg]; destruct (t_native (w_tok w)); cbn [sm_msg]; lia.
Qed.

Lemma okleaf_withdraw w st r amt pre st' msgs :
  withdraw w st r amt pre = Ok (st', msgs) -> r <> A_IFUND ->
  Forall okleaf msgs /\ e_bad_debt st' = e_bad_debt st + draws msgs.
Proof.
  intros H Hr. apply withdraw_spec in H. destruct H as (sf & [(-> & _ & ->) | (-> & Hs & _ & Hb & _)]).
  - split; [repeat constructor; unfold okleaf, execute_transfer; cbn [sm_msg]; intros E; congruence|cbn [draws execute_transfer sm_msg]; lia].
  - split; [repeat constructor; unfold okleaf, execute_transfer, execute_insurance_fund_withdrawal; cbn [sm_msg]; [lia|intros E; congruence]|].
    cbn [draws execute_transfer execute_insurance_fund_withdrawal sm_msg]. lia.
Qed.

Lemma uoin_bd w st v a t st1 : update_open_interest_notional w st v a t = Ok st1 -> e_bad_debt st1 = e_bad_debt st.
Proof. unfold update_open_interest_notional. intros H. minv H. inv_ok. reflexivity. Qed.

Lemma okleaf_pull w t amt : t <> A_IFUND -> okleaf (execute_transfer_from w t A_ENGINE amt).
Proof.
  intros H. unfold okleaf, execute_transfer_from. destruct (t_native (w_tok w)); cbn [sm_msg].
  - intros E. discriminate E.
  - split; [exact H|intros E; discriminate E].
Qed.
Lemma okleaf_pay t amt : t <> A_IFUND -> okleaf (execute_transfer t amt).
Proof. intros H. unfold okleaf, execute_transfer. cbn [sm_msg]. intros E. congruence. Qed.

Lemma draws_pull w t c amt : draws [execute_transfer_from w t c amt] = 0.
Proof. unfold execute_transfer_from. destruct (t_native (w_tok w)); reflexivity. Qed.

(* the pending swap of a trader-initiated transaction *)
Definition pendT (w : world) (m : msg) (id : Z) : Prop :=
  is_swap m = true /\ fees_ok w /\
  (id = INCREASE_ID \/ id = DECREASE_ID \/ id = REVERSE_ID \/ id = CLOSE_ID \/ id = PARTIAL_CLOSE_ID) /\
  exists tm, e_tmp (w_eng w) = Some tm /\ ts_trader tm <> A_IFUND /\ 0 <= ts_open_notional tm /\
    0 <= p_notional (get_position (w_eng w) (w_env w) (ts_vamm tm) (ts_trader tm) (ts_side tm)).

Lemma pendT_closed : pendF_closed pendT.
Proof.
  intros w w1 m id (E1 & E2 & E3) (Hs & Hf & Hid & tm & H1 & H2 & H3 & H4).
  split; [exact Hs|]. split; [unfold fees_ok in *; rewrite E2; exact Hf|]. split; [exact Hid|].
  exists tm. rewrite E1, E3. auto.
Qed.

Lemma update_position_reply_floor w i o id w' subs tm :
  update_position_reply w i o id = Ok (w', subs) -> e_tmp (w_eng w) = Some tm ->
  ts_trader tm <> A_IFUND -> 0 <= ts_open_notional tm -> fees_ok w ->
  readyF pendT w' subs /\ e_bad_debt (es (w_eng w')) = e_bad_debt (es (w_eng w)) + draws subs.
Proof.
  intros H Htmp Ht Hn Hf. pose proof (update_position_reply_leafy _ _ _ _ _ _ H) as Hl.
  unfold update_position_reply, need_tmp in H. rewrite Htmp in H. cbn [bind] in H.
  arm H.
  match goal with Hu : update_open_interest_notional _ _ _ _ _ = Ok ?s |- _ => apply uoin_bd in Hu; rename Hu into Hbd, s into st1 end.
  match goal with |- readyF _ _ (?a ++ ?b) /\ _ => rename a into mm, b into fm end.
  match goal with |- context [eng_set_state _ ?s] => rename s into st2 end.
  (* the margin leg: a withdrawal, a pull from the trader, or nothing *)
  assert (A1 : Forall okleaf mm /\ e_bad_debt st2 = e_bad_debt st1 + draws mm).
  { defn mm; try (split; [constructor|cbn [draws]; lia]).
    - match goal with Hw : withdraw _ _ _ _ _ = Ok _ |- _ => exact (okleaf_withdraw _ _ _ _ _ _ _ Hw Ht) end.
    - split; [repeat constructor; apply okleaf_pull, Ht|rewrite draws_pull; lia]. }
  (* the fee leg *)
  assert (A2 : Forall okleaf fm /\ draws fm = 0).
  { defn fm; [|split; [constructor|reflexivity]].
    match goal with Hw : transfer_fees _ _ _ _ = Ok _ |- _ => exact (okleaf_fees _ _ _ _ _ _ _ Hw Hn Hf Ht) end. }
  destruct A1 as [O1 B1], A2 as [O2 B2]. split; [apply readyF_leafy; [exact Hl|apply Forall_app; auto]|].
  cbn [w_eng set_eng es eng_set_sent eng_set_tmp eng_set_state]. rewrite draws_app. lia.
Qed.

Lemma close_position_reply_floor w i o w' subs tm :
  close_position_reply w i o = Ok (w', subs) -> e_tmp (w_eng w) = Some tm ->
  ts_trader tm <> A_IFUND ->
  0 <= p_notional (get_position (w_eng w) (w_env w) (ts_vamm tm) (ts_trader tm) (ts_side tm)) -> fees_ok w ->
  readyF pendT w' subs /\ e_bad_debt (es (w_eng w')) = e_bad_debt (es (w_eng w)) + draws subs.
Proof.
  intros H Htmp Ht Hn Hf. pose proof (close_position_reply_leafy _ _ _ _ _ H) as Hl.
  unfold close_position_reply, need_tmp in H. rewrite Htmp in H. cbn [bind] in H.
  arm H.
  match goal with Hu : update_open_interest_notional _ ?s _ _ _ = Ok _ |- _ => apply uoin_bd in Hu; rename Hu into Hbd, s into st1 end.
  match goal with |- readyF _ _ (?a ++ ?b) /\ _ => rename a into mm, b into fm end.
  assert (A1 : Forall okleaf mm /\ e_bad_debt st1 = e_bad_debt (es (w_eng w)) + draws mm).
  { defn mm; [|split; [constructor|cbn [draws]; lia]].
    match goal with Hw : withdraw _ _ _ _ _ = Ok _ |- _ => exact (okleaf_withdraw _ _ _ _ _ _ _ Hw Ht) end. }
  assert (A2 : Forall okleaf fm /\ draws fm = 0).
  { defn fm; [|split; [constructor|reflexivity]].
    match goal with Hw : transfer_fees _ _ _ _ = Ok _ |- _ => exact (okleaf_fees _ _ _ _ _ _ _ Hw Hn Hf Ht) end. }
  destruct A1 as [O1 B1], A2 as [O2 B2]. split; [apply readyF_leafy; [exact Hl|apply Forall_app; auto]|].
  cbn [w_eng set_eng es eng_set_tmp eng_set_state]. rewrite draws_app. lia.
Qed.

Lemma partial_close_position_reply_floor w i o w' subs tm :
  partial_close_position_reply w i o = Ok (w', subs) -> e_tmp (w_eng w) = Some tm ->
  ts_trader tm <> A_IFUND -> 0 <= ts_open_notional tm -> fees_ok w ->
  readyF pendT w' subs /\ e_bad_debt (es (w_eng w')) = e_bad_debt (es (w_eng w)) + draws subs.
Proof.
  intros H Htmp Ht Hn Hf. pose proof (partial_close_position_reply_leafy _ _ _ _ _ H) as Hl.
  unfold partial_close_position_reply, need_tmp in H. rewrite Htmp in H. cbn [bind] in H.
  arm H.
  match goal with Hu : update_open_interest_notional _ _ _ _ _ = Ok _ |- _ => apply uoin_bd in Hu; rename Hu into Hbd end.
  match goal with Hw : transfer_fees _ _ _ _ = Ok _ |- _ => destruct (okleaf_fees _ _ _ _ _ _ _ Hw Hn Hf Ht) as [O B] end.
  split; [exact (readyF_leafy _ _ _ Hl O)|]. cbn [w_eng set_eng es eng_set_tmp eng_set_state]. lia.
Qed.

(* the reversal leaves an empty position behind; what it re-opens is again a trader's pending swap *)
Lemma reverse_position_reply_floor w i o w' subs tm :
  reverse_position_reply w i o = Ok (w', subs) -> e_tmp (w_eng w) = Some tm ->
  ts_trader tm <> A_IFUND -> 0 <= ts_open_notional tm -> fees_ok w ->
  readyF pendT w' subs /\ e_bad_debt (es (w_eng w')) = e_bad_debt (es (w_eng w)) + draws subs.
Proof.
  intros H Htmp Ht Hn Hf.
  destruct (reverse_position_reply_spec _ _ _ _ _ _ H Htmp) as (st1 & fp & mg & bad & lat & fmsgs & spread & toll & x & Hbd & _ & Hw & _ & Hl).
  apply uoin_bd in Hbd. destruct (okleaf_fees _ _ _ _ _ _ _ Hw Hn Hf Ht) as [O B].
  destruct Hl as [[-> ->]|(q & sent & Hq & -> & ->)];
    (split; [apply readyF_leafy_app; [leafy_goal|exact O|]|cbn [w_eng set_eng es eng_set_sent eng_set_tmp eng_set_state]; rewrite draws_app; cbn; lia]).
  - cbn [readyF execute_transfer sm_reply wants_ok sm_msg is_leaf]. auto using okleaf_pay.
  - cbn [readyF internal_increase_position swap_input_msg sm_reply wants_ok sm_msg sm_id].
    split; [reflexivity|split; [reflexivity|]]. split; [reflexivity|]. split; [exact Hf|]. split; [left; reflexivity|].
    eexists. split; [reflexivity|]. cbn [ts_vamm ts_trader ts_side ts_open_notional]. split; [exact Ht|]. split; [exact Hq|].
    unfold get_position. cbn [w_eng set_eng]. rewrite find_set_state, find_set_sent, find_set_tmp, find_store_same. cbn. lia.
Qed.

Lemma pendT_pair w m id w1 ev w2 subs :
  pendT w m id -> exec_simple w A_ENGINE m = Ok (w1, ev) ->
  contract_reply w1 A_ENGINE id (Ok ev) = Ok (w2, subs) ->
  readyF pendT w2 subs /\ e_bad_debt (es (w_eng w2)) = e_bad_debt (es (w_eng w)) + draws subs.
Proof.
  intros (Hs & Hf & Hid & tm & Htmp & Ht & Hn & Hpn) Hex Hr.
  destruct (exec_swap_vc _ _ _ _ _ Hs Hex) as (v & vm & vm' & Hz & -> & Hvc).
  assert (Hf1 : fees_ok (set_vamm w v vm')).
  { intros v1 vm1 Hz1. cbn [w_vamms set_vamm] in Hz1. destruct (Z.eq_dec v1 v) as [->|Hne].
    - rewrite zfind_zset_same in Hz1. injection Hz1 as <-. rewrite Hvc. exact (Hf _ _ Hz).
    - rewrite zfind_zset_other in Hz1 by exact Hne. exact (Hf _ _ Hz1). }
  destruct Hid as [ -> | [ -> | [ -> | [ -> | -> ] ] ] ]; (destruct ev as [i o| |]; [|discriminate Hr..]); autorewrite with reply_id in Hr.
  - exact (update_position_reply_floor _ _ _ _ _ _ _ Hr Htmp Ht Hn Hf1).
  - exact (update_position_reply_floor _ _ _ _ _ _ _ Hr Htmp Ht Hn Hf1).
  - exact (reverse_position_reply_floor _ _ _ _ _ _ Hr Htmp Ht Hn Hf1).
  - exact (close_position_reply_floor _ _ _ _ _ _ Hr Htmp Ht Hpn Hf1).
  - exact (partial_close_position_reply_floor _ _ _ _ _ _ Hr Htmp Ht Hn Hf1).
Qed.

Lemma get_position_notional w t v s : 0 <= p_notional (read_position (w_eng w) v t) ->
  0 <= p_notional (get_position (w_eng w) (w_env w) v t s).
Proof. unfold read_position, get_position. destruct (find_position (w_eng w) v t); cbn [p_notional]; [auto|lia]. Qed.

(* the fund's balance falls by no more than the prepaid bad debt recorded in the same transaction: attaching funds does
   not touch the fund's balance; after that, it is enough that the handler's messages are ready and that it records what they draw *)
Lemma tx_floor f w s m funds w' :
  exec_op f w (OEngine s m funds) = Ok w' -> s <> A_IFUND ->
  (forall t0 w1 subs, engine_execute (set_tok w t0) s m funds = Ok (w1, subs) ->
     readyF pendT w1 subs /\ e_bad_debt (es (w_eng w1)) = e_bad_debt (es (w_eng w)) + draws subs) ->
  bal (w_tok w) A_IFUND - bal (w_tok w') A_IFUND <= e_bad_debt (es (w_eng w')) - e_bad_debt (es (w_eng w)).
Proof.
  intros H Hs Hex. destruct (engine_tx _ _ _ _ _ _ H) as (t0 & w1 & subs & n & _ & _ & Hb & He & Et & _ & Hd). specialize (Hb A_IFUND). unfold ind in Hb.
  change (A_IFUND =? A_ENGINE) with false in Hb. destruct (Z.eqb_spec A_IFUND s); [congruence|].
  destruct (Hex _ _ _ He) as [Hr Hbd].
  pose proof (dispatched_floor pendT pendT_closed (fun w m id H => proj1 H) pendT_pair _ _ _ _ _ _ Hd Hr) as Hfl.
  unfold fsum in Hfl. rewrite Et in Hfl. lia.
Qed.

