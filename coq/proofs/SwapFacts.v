(* Quotes equal executions, slippage limits (C17); the per-block price band (C15). *)
From MP.Model Require Import Prelude U128 SInt Feed Vamm VammOps Token World Engine Runtime.
From MP.Proofs Require Import Tactics VammFacts.

(* C17: the swap executes exactly what the query quotes *)
Lemma swap_input_quote v e s d quote lim cgo v' qa ba :
  swap_input v e s d quote lim cgo = Ok (v', (qa, ba)) ->
  qa = quote /\ q_input_amount v d quote = Ok ba.
Proof.
  unfold swap_input, q_input_amount. intros H. minv H. inv_ok. auto.
Qed.

Lemma swap_output_quote v e s d base lim v' qa ba :
  swap_output v e s d base lim = Ok (v', (qa, ba)) ->
  ba = base /\ q_output_amount v d base = Ok qa.
Proof.
  unfold swap_output, q_output_amount. intros H. minv H. inv_ok. auto.
Qed.

Lemma swap_output_amounts vm e s d b l vm' q ba : swap_output vm e s d b l = Ok (vm', (q, ba)) -> 0 <= q /\ ba = b.
Proof. intros H. destruct (swap_output_quote _ _ _ _ _ _ _ _ _ H) as [-> Hq]. split; [exact (output_price_nonneg _ _ _ _ _ _ Hq)|reflexivity]. Qed.

(* C17: whether a non-zero limit is met by the amount the swap returns *)
Definition input_limit_met (d : direction) (base lim : Z) : bool :=
  match d with AddToAmm => lim <=? base | RemoveFromAmm => base <=? lim end.

Definition output_limit_met (d : direction) (quote lim : Z) : bool :=
  match flip d with RemoveFromAmm => lim <=? quote | AddToAmm => quote <=? lim end.

Definition in_band (p upper lower : Z) : Prop := lower <= p <= upper.

Lemma out_of_band_iff p upper lower : out_of_band p upper lower = false <-> in_band p upper lower.
Proof. unfold out_of_band, in_band. rewrite orb_false_iff, !Z.ltb_ge. lia. Qed.

(* the price after the reserves have moved, as the contract computes it, is the spot price of the new reserves *)
Lemma moved_price_spot dec q b d qa ba p :
  match d with
  | AddToAmm => do q' <- cadd q qa; do m <- cmul q' dec; do b' <- csub b ba; cdiv m b'
  | RemoveFromAmm => do q' <- csub q qa; do m <- cmul q' dec; do b' <- cadd b ba; cdiv m b'
  end = Ok p ->
  match d with
  | AddToAmm => spot_of dec (q + qa) (b - ba)
  | RemoveFromAmm => spot_of dec (q - qa) (b + ba)
  end = Ok p.
Proof.
  intros H. destruct d; repeat inv_bind H; unfold spot_of.
  - apply cadd_ok in Hx as [-> _]. apply csub_ok in Hx1 as [-> _]. rewrite Hx0. exact H.
  - apply csub_ok in Hx as [-> _]. apply cadd_ok in Hx1 as [-> _]. rewrite Hx0. exact H.
Qed.

Lemma check_fluctuation_band v e d qa ba :
  v_fluct (vc v) <> 0 ->
  check_fluctuation v e d qa ba false = Ok tt ->
  exists upper lower cur price,
    price_boundaries v e = Ok (upper, lower) /\
    spot_of (v_dec (vc v)) (v_q (vs v)) (v_b (vs v)) = Ok cur /\ in_band cur upper lower /\
    (match d with
     | AddToAmm => spot_of (v_dec (vc v)) (v_q (vs v) + qa) (v_b (vs v) - ba)
     | RemoveFromAmm => spot_of (v_dec (vc v)) (v_q (vs v) - qa) (v_b (vs v) + ba)
     end) = Ok price /\ in_band price upper lower.
Proof.
  intros Hf H. unfold check_fluctuation in H. apply Z.eqb_neq in Hf. rewrite Hf in H.
  minv H. apply negb_true_iff, out_of_band_iff in Hb, Hb0.
  exists z, z0, x, x0. do 2 (split; [reflexivity|]). split; [exact Hb|]. split; [|exact Hb0].
  apply moved_price_spot, Hx1.
Qed.

