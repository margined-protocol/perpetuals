(* The engine's margin arithmetic in terms of mathematical integers. *)
From MP.Model Require Import Prelude U128 SInt Feed Vamm VammOps Token World Engine Runtime.
From MP.Proofs Require Import Tactics SIntFacts.

Definition pos_wf (p : position) : Prop :=
  wf0 (p_size p) /\ wf0 (p_lupf p) /\ 0 <= p_margin p /\ 0 <= p_notional p.

Definition cpf_wf (e : engine) (v : addr) : Prop := wf0 (cumulative_premium_fraction e v).

(* funding owed: (cumulative fraction - checkpoint) x size / D, truncated toward zero *)
Definition funding_owed (w : world) (v : addr) (p : position) : Z :=
  Z.quot ((toZ (cumulative_premium_fraction (w_eng w) v) - toZ (p_lupf p)) * toZ (p_size p)) (e_dec (ec (w_eng w))).

Lemma calc_remain_margin_spec w v p delta fp margin bad latest :
  pos_wf p -> cpf_wf (w_eng w) v -> wf0 delta -> 0 < e_dec (ec (w_eng w)) ->
  calc_remain_margin w v p delta = Ok (fp, margin, bad, latest) ->
  latest = cumulative_premium_fraction (w_eng w) v /\
  toZ fp = funding_owed w v p /\
  let r := toZ delta - funding_owed w v p + p_margin p in
  (r < 0 -> margin = 0 /\ bad = - r) /\ (0 <= r -> margin = r /\ bad = 0) /\ 0 <= margin /\ 0 <= bad.
Proof.
  intros (Hs & Hl & Hm & _) Hc Hd HD H. unfold calc_remain_margin in H. cbv zeta in H. unfold cpf_wf in Hc.
  repeat inv_bind H.
  apply ssub_toZ0 in Hx as (Z1 & W1 & _); auto.
  apply smul_toZ0 in Hx0 as (Z2 & W2 & _); auto.
  apply sdiv_toZ0 in Hx1 as (Z3 & W3 & _); auto using spos_wf0, Z.lt_le_incl.
  apply ssub_toZ0 in Hx2 as (Z4 & W4 & _); auto.
  apply sadd_toZ0 in Hx3 as (Z5 & W5 & _); auto using spos_wf0.
  rewrite toZ_spos in *.
  assert (Hfp : toZ x1 = funding_owed w v p) by (unfold funding_owed; rewrite Z3, Z2, Z1; reflexivity).
  cbv zeta. replace (toZ delta - funding_owed w v p + p_margin p) with (toZ x3) by lia.
  rewrite s_is_negative_toZ0 in H by assumption.
  destruct (Z.ltb_spec (toZ x3) 0); injection H as <- <- <- <-; cbn [sval sinvert];
    rewrite (wf0_toZ_abs x3 W5); repeat split; intros; lia.
Qed.
