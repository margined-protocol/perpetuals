(* The relation between twin deployments (same engine, vAMM, fund and ledger state; one on native collateral, one on cw20)
   and what both members of a pair read alike; the C13_twin_* theorems are stated over it. *)
From MP.Model Require Import Prelude U128 SInt Feed Vamm VammOps Token World Engine Runtime.
From MP.Proofs Require Import Tactics EngineArith.

Definition twin (wc wn : world) : Prop :=
  t_native (w_tok wc) = false /\ t_native (w_tok wn) = true /\
  w_eng wc = w_eng wn /\ w_vamms wc = w_vamms wn /\ w_env wc = w_env wn /\ w_if wc = w_if wn /\
  forall a, bal (w_tok wc) a = bal (w_tok wn) a.

Lemma twin_get_vamm wc wn v : twin wc wn -> get_vamm wn v = get_vamm wc v.
Proof. intros (_ & _ & _ & Hv & _). unfold get_vamm. rewrite Hv. reflexivity. Qed.

Lemma twin_funding_owed wc wn v p : twin wc wn -> funding_owed wn v p = funding_owed wc v p.
Proof. intros (_ & _ & He & _). unfold funding_owed. rewrite He. reflexivity. Qed.
