(* Configuration bounds kept by one update of the engine's or a vAMM's configuration, the cap guards (C20); who may call
   the privileged vAMM entry points (C09). *)
From MP.Model Require Import Prelude U128 SInt Feed Vamm VammOps Token World Engine Runtime.
From MP.Proofs Require Import Tactics SIntFacts.

Definition ecfg_ok (c : ecfg) : Prop :=
  0 < e_dec c /\ 0 <= e_init c <= e_dec c /\ 0 <= e_maint c <= e_dec c /\ e_maint c <= e_init c /\
  0 <= e_plr c <= e_dec c /\ 0 <= e_liqfee c <= e_dec c.

Definition opt_nonneg (o : option Z) : Prop := match o with Some v => 0 <= v | None => True end.

Lemma validate_ratio_ok v d u : validate_ratio v d = Ok u -> v <= d.
Proof. unfold validate_ratio. intros H. minv H. zb. lia. Qed.
Lemma validate_margin_ratios_ok i m u : validate_margin_ratios i m = Ok u -> m <= i.
Proof. unfold validate_margin_ratios. intros H. minv H. zb. lia. Qed.
Lemma validate_decimal_places_ok d r : validate_decimal_places d = Ok r -> r = 10 ^ d /\ 6 <= d /\ 0 < r.
Proof.
  unfold validate_decimal_places. intros H. minv H. inv_ok. zb.
  repeat split; try lia; try (apply Z.pow_pos_nonneg; lia).
Qed.

(* every validation that passed becomes the inequality it checked *)
Ltac validated :=
  repeat match goal with
  | H : validate_ratio _ _ = Ok _ |- _ => apply validate_ratio_ok in H
  | H : validate_margin_ratios _ _ = Ok _ |- _ => apply validate_margin_ratios_ok in H
  | H : validate_decimal_places _ = Ok _ |- _ => apply validate_decimal_places_ok in H; destruct H as (_ & _ & H)
  end.

(* an optional update that, when present, is validated *)
Lemma opt_update_ok {A} (P : A -> Prop) (o : option Z) (f : Z -> res A) c c' :
  match o with Some r => f r | None => Ok c end = Ok c' ->
  (forall r, o = Some r -> P c -> f r = Ok c' -> P c') -> P c -> P c'.
Proof. intros H Hf Hc. destruct o; [eauto | inv_ok; exact Hc]. Qed.

(* The four optional ratios are set one after the other, each validated against exactly what
   ecfg_ok asks of that field with the others as they then are. *)
Lemma e_update_config_cfg w s o i f a b c d w' subs :
  opt_nonneg a -> opt_nonneg b -> opt_nonneg c -> opt_nonneg d ->
  e_update_config w s o i f a b c d = Ok (w', subs) ->
  ecfg_ok (ec (w_eng w)) ->
  ecfg_ok (ec (w_eng w')) /\ e_dec (ec (w_eng w')) = e_dec (ec (w_eng w)) /\ s = e_owner (ec (w_eng w)) /\
  w_vamms w' = w_vamms w /\ w_if w' = w_if w.
Proof.
  intros Ha Hb Hc Hd H Hok. unfold e_update_config in H. cbv beta zeta in H.
  destruct (Z.eqb_spec s (e_owner (ec (w_eng w)))) as [Es|]; [|discriminate].
  repeat inv_bind H. inv_ok. cbn.
  set (P c := ecfg_ok c /\ e_dec c = e_dec (ec (w_eng w))).
  enough (P x2) by (unfold P in *; tauto).
  apply (opt_update_ok P _ _ _ _ Hx2), (opt_update_ok P _ _ _ _ Hx1), (opt_update_ok P _ _ _ _ Hx0),
    (opt_update_ok P _ _ _ _ Hx), (conj Hok eq_refl).
  all: intros r -> Pc Hr; minv Hr; inv_ok; validated; unfold P, ecfg_ok in *; cbn in *; lia.
Qed.

Definition vcfg_ok (c : vcfg) : Prop :=
  0 < v_dec c /\ 0 <= v_toll c <= v_dec c /\ 0 <= v_spread c <= v_dec c /\ 0 <= v_fluct c <= v_dec c /\
  ONE_MINUTE <= v_twap_interval c <= ONE_WEEK.

Lemma opt_ratio_ok o d old u : opt_nonneg o -> 0 <= old <= d ->
  match o with Some r => validate_ratio r d | None => Ok tt end = Ok u -> 0 <= opt_or o old <= d.
Proof. destruct o; cbn; intros Ho Hd H; [apply validate_ratio_ok in H|]; lia. Qed.

Lemma vamm_update_config_cfg v s u v' :
  opt_nonneg (u_toll u) -> opt_nonneg (u_spread u) -> opt_nonneg (u_fluct u) ->
  vamm_update_config v s u = Ok v' -> vcfg_ok (vc v) ->
  vcfg_ok (vc v') /\ v_dec (vc v') = v_dec (vc v) /\ is_admin (v_owner v) s = true /\ vs v' = vs v.
Proof.
  intros Ht Hs Hf H (Hd & Hto & Hsp & Hfl & Htw). unfold vamm_update_config in H.
  destr_if_in H; [|discriminate]. repeat inv_bind H. inv_ok.
  apply (opt_ratio_ok _ _ (v_toll (vc v))) in Hx; auto.
  apply (opt_ratio_ok _ _ (v_spread (vc v))) in Hx0; auto.
  apply (opt_ratio_ok _ _ (v_fluct (vc v))) in Hx1; auto.
  assert (ONE_MINUTE <= opt_or (u_twap_interval u) (v_twap_interval (vc v)) <= ONE_WEEK)
    by (destruct (u_twap_interval u); [minv Hx2; zb; cbn; lia | exact Htw]).
  unfold vcfg_ok. cbn. tauto.
Qed.

Lemma if_add_vamm_decimals w s v w' subs : if_add_vamm w s v = Ok (w', subs) ->
  exists vm, get_vamm w v = Ok vm /\ v_dec (vc vm) = e_dec (ec (w_eng w)) /\
  if_vamms (w_if w') = if_vamms (w_if w) ++ [v] /\ is_admin (if_owner (w_if w)) s = true /\
  zmem v (if_vamms (w_if w)) = false /\ (length (if_vamms (w_if w)) < 3)%nat.
Proof.
  unfold if_add_vamm. intros H. minv H. inv_ok. zb. cbn. eexists; repeat split; eauto; try lia;
  try (apply negb_true_iff; auto).
Qed.

Lemma update_oi_cap w st v amount t st' :
  wf0 amount -> 0 <= e_oi st ->
  update_open_interest_notional w st v amount t = Ok st' ->
  exists vm, get_vamm w v = Ok vm /\
  (0 < v_oi_cap (vc vm) -> s_is_positive amount = true -> is_whitelisted w t = false ->
   e_oi st' <= v_oi_cap (vc vm)) /\ 0 <= e_oi st'.
Proof.
  intros Hwa Hoi. unfold update_open_interest_notional. intros H. minv H. inv_ok.
  apply schecked_add_toZ0 in Hx0; auto using spos_wf0. destruct Hx0 as (_ & Hw0 & _).
  eexists; split; [reflexivity|]. cbn [e_oi].
  set (u := if s_is_negative x0 then szero else x0) in *.
  assert (Hu : wf0 u /\ sval u = toZ u).
  { unfold u. destruct (s_is_negative x0) eqn:En; [split; [apply Z.le_refl|reflexivity]|].
    rewrite s_is_negative_toZ0 in En by exact Hw0. apply Z.ltb_ge in En.
    rewrite wf0_toZ_abs by exact Hw0. split; [exact Hw0|apply Z.abs_eq, En]. }
  destruct Hu as [Hu Eu]. split; [|exact Hu].
  intros Hc Hp Hw. rewrite Hp, Hw, sgtb_spos0 in Hb by (auto; lia).
  destruct (Z.eqb_spec (v_oi_cap (vc x)) 0); [lia|].
  destruct (Z.ltb_spec (v_oi_cap (vc x)) (toZ u)); [discriminate Hb|lia].
Qed.

Lemma holding_cap w v size t u :
  check_base_asset_holding_cap w v size t = Ok u ->
  exists vm, get_vamm w v = Ok vm /\
  (v_hold_cap (vc vm) <> 0 -> is_whitelisted w t = false -> size <= v_hold_cap (vc vm)).
Proof.
  unfold check_base_asset_holding_cap. intros H. minv H. eexists; split; [reflexivity|].
  intros Hc Hw. rewrite Hw in Hb. apply Z.eqb_neq in Hc. rewrite Hc in Hb. cbn in Hb.
  rewrite andb_true_r in Hb. apply negb_true_iff in Hb. zb. lia.
Qed.

(* Access control (C09): the sender test is the first check of each entry point. *)
Lemma check_ok {A} (b : bool) e (k : res A) r : (check b else e; k) = Ok r -> b = true.
Proof. destruct b; [reflexivity | discriminate]. Qed.

Lemma swap_input_only_engine v e s d q l c r : swap_input v e s d q l c = Ok r -> s = v_engine (vc v) /\ v_open (vs v) = true.
Proof. unfold swap_input. intros H. minv H. zb. auto. Qed.
Lemma swap_output_only_engine v e s d b l r : swap_output v e s d b l = Ok r -> s = v_engine (vc v) /\ v_open (vs v) = true.
Proof. unfold swap_output. intros H. minv H. zb. auto. Qed.
Lemma settle_funding_only_engine v e s o r : settle_funding v e s o = Ok r -> s = v_engine (vc v).
Proof. unfold settle_funding. intros H. minv H. zb. auto. Qed.
