(* One account's transaction never alters another trader's position (C10). *)
From MP.Model Require Import Prelude U128 SInt Feed Vamm VammOps Token World Engine Runtime.
From MP.Proofs Require Import Tactics MapFacts RuntimeFacts HandlerFacts.

Lemma find_store_same e v t p : find_position (store_position e v t p) v t = Some p.
Proof. unfold find_position, positions_of, store_position; cbn [e_pos]. rewrite zfind_zset_same. apply zfind_zset_same. Qed.

Lemma find_store_other e v t p v2 t2 : (v <> v2 \/ t <> t2) -> find_position (store_position e v t p) v2 t2 = find_position e v2 t2.
Proof.
  intros H. unfold find_position, positions_of, store_position; cbn [e_pos].
  destruct (Z.eq_dec v2 v) as [->|Ev]; [|rewrite zfind_zset_other by exact Ev; reflexivity].
  rewrite zfind_zset_same. apply zfind_zset_other. destruct H; congruence.
Qed.

Lemma find_remove_other e v t v2 t2 : (v <> v2 \/ t <> t2) -> find_position (remove_position e v t) v2 t2 = find_position e v2 t2.
Proof.
  intros H. unfold find_position, positions_of, remove_position; cbn [e_pos].
  destruct (Z.eq_dec v2 v) as [->|Ev]; [|rewrite zfind_zset_other by exact Ev; reflexivity].
  rewrite zfind_zset_same. apply zfind_zdel_other. destruct H; congruence.
Qed.

(* the in-flight swap record, if any, is not about (v, t) *)
Definition tmp_not (v t : addr) (e : engine) : Prop :=
  match e_tmp e with Some tm => ts_vamm tm <> v \/ ts_trader tm <> t | None => True end.

Definition frame (v t : addr) (p0 : option position) (w : world) : Prop :=
  find_position (w_eng w) v t = p0 /\ tmp_not v t (w_eng w).

(* setters other than store/remove keep positions *)
Lemma find_set_state e st v t : find_position (eng_set_state e st) v t = find_position e v t. Proof. reflexivity. Qed.
Lemma find_set_tmp e x v t : find_position (eng_set_tmp e x) v t = find_position e v t. Proof. reflexivity. Qed.
Lemma find_set_sent e x v t : find_position (eng_set_sent e x) v t = find_position e v t. Proof. reflexivity. Qed.
Lemma find_set_liq e x v t : find_position (eng_set_liq e x) v t = find_position e v t. Proof. reflexivity. Qed.
Lemma find_set_vmap e a m v t : find_position (eng_set_vmap e a m) v t = find_position e v t. Proof. reflexivity. Qed.
Lemma find_enter e a h v t : find_position (enter_restriction_mode e a h) v t = find_position e v t. Proof. reflexivity. Qed.
Global Hint Rewrite find_set_state find_set_tmp find_set_sent find_set_liq find_set_vmap find_enter : find_pos.

(* a reply handler writes only the position its in-flight record names, and a record it leaves behind names
   the same position *)
Lemma contract_reply_frame v t p0 w c id r w' subs :
  contract_reply w c id r = Ok (w', subs) -> frame v t p0 w -> frame v t p0 w'.
Proof.
  unfold contract_reply, engine_reply. intros H [Hfind Htmp]. unfold tmp_not in Htmp.
  destruct (c =? A_ENGINE); [|discriminate]. destruct r as [[]|]; try discriminate;
    repeat (destr_if_in H; [|try discriminate H]).
  all: unfold update_position_reply, reverse_position_reply, close_position_reply, partial_close_position_reply,
         liquidate_reply, partial_liquidation_reply, pay_funding_reply, need_tmp in H.
  all: try (destruct (e_tmp (w_eng w)) as [tm|] eqn:Etm; [|discriminate H]).
  all: arm H; try match goal with Ha : append_cumulative_premium_fraction _ _ _ = Ok _ |- _ => apply append_cpf_vmap in Ha; destruct Ha as [m ->] end.
  all: unfold frame, tmp_not;
       cbn [w_eng set_eng e_tmp eng_set_tmp eng_set_state eng_set_sent eng_set_liq eng_set_vmap enter_restriction_mode
            store_position remove_position ts_vamm ts_trader];
       autorewrite with find_pos;
       try rewrite find_store_other by exact Htmp; try rewrite find_remove_other by exact Htmp;
       try rewrite Etm; auto.
Qed.

Lemma dispatched_frame v t p0 f w n sender subs w' n' :
  dispatched f w n sender subs w' n' -> frame v t p0 w -> frame v t p0 w'.
Proof.
  apply (dispatched_inv (frame v t p0)).
  - intros w0 c m w1 ev Hx. unfold frame. rewrite (exec_simple_eng _ _ _ _ _ Hx). auto.
  - intros w0 c id ev. apply contract_reply_frame.
Qed.

(* which stored position an engine message may write: the sender's own, or the one Liquidate names *)
Definition touches (m : emsg) (s : addr) : option (addr * addr) :=
  match m with
  | EOpenPosition v _ _ _ _ => Some (v, s)
  | EClosePosition v _ => Some (v, s)
  | EDepositMargin v _ => Some (v, s)
  | EWithdrawMargin v _ => Some (v, s)
  | ELiquidate v t _ => Some (v, t)
  | _ => None
  end.

Definition not_touching (m : emsg) (s v t : addr) : Prop :=
  match touches m s with Some (v', t') => v' <> v \/ t' <> t | None => True end.

Lemma engine_execute_frame v t w s m funds w' subs :
  engine_execute w s m funds = Ok (w', subs) ->
  not_touching m s v t -> e_tmp (w_eng w) = None ->
  frame v t (find_position (w_eng w) v t) w'.
Proof.
  unfold not_touching. intros H Hn Hclean. destruct m; cbn [engine_execute touches] in H, Hn.
  all: unfold e_update_config, e_update_pauser, e_add_whitelist, e_remove_whitelist, e_open_position, e_close_position, e_liquidate,
         internal_close_position, e_pay_funding, e_deposit_margin, e_withdraw_margin, e_set_pause in H; arm H.
  all: try match goal with Hp : partial_liquidation _ _ _ _ = Ok _ |- _ => unfold partial_liquidation in Hp; arm Hp; split; [reflexivity|exact Hn] end.
  (* an arm either starts a swap for the position it names, or writes that position, or writes none *)
  all: unfold frame, tmp_not;
       cbn [w_eng set_eng e_tmp eng_set_cfg eng_set_pauser eng_set_wl eng_set_sent eng_set_tmp eng_set_liq eng_set_state store_position ts_vamm ts_trader];
       autorewrite with find_pos; rewrite ?find_store_other by exact Hn; rewrite ?Hclean; auto.
Qed.

(* C10: an engine transaction leaves every stored position other than the one it may write (`touches`) exactly
   as it was: not changed, not created, not removed *)
Lemma exec_engine_frame f w s m funds w' v t :
  exec_op f w (OEngine s m funds) = Ok w' ->
  not_touching m s v t -> e_tmp (w_eng w) = None ->
  find_position (w_eng w') v t = find_position (w_eng w) v t.
Proof.
  intros H Hn Hc. apply exec_engine_tok in H. destruct H as (t0 & w1 & subs & n & He & Hd).
  apply engine_execute_frame with (v := v) (t := t) in He; [|exact Hn|exact Hc].
  apply (dispatched_frame _ _ _ _ _ _ _ _ _ _ Hd) in He. apply He.
Qed.
