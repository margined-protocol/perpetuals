(* Behind C06's end-to-end theorems: a Liquidate transaction is a full or a partial liquidation; what a full one does to the
   liquidator's and the liquidated trader's wallets; a partial one shrinks the position by the configured fraction, keeps
   its sign and credits the liquidator half the penalty (C06, C13). *)
From MP.Model Require Import Prelude U128 SInt Feed Vamm VammOps Token World Engine Runtime.
From MP.Proofs Require Import Tactics SwapFacts LiqFacts HandlerFacts MirrorFacts MoreFacts FlowFacts CloseTxFacts MapFacts SIntFacts CloseFacts.

Lemma liquidate_reply_no_pulls w i o w' msgs swap liquidator :
  liquidate_reply w i o = Ok (w', msgs) -> e_tmp (w_eng w) = Some swap -> e_liq (w_eng w) = Some liquidator -> no_pulls msgs.
Proof.
  intros H Htmp Hliq.
  destruct (liquidate_reply_sends _ _ _ _ _ _ _ Htmp Hliq H) as (e' & draw & margin & pay & fee & _ & _ & -> & Hdraw & _ & Hpay).
  repeat (apply Forall_app; split).
  - destruct Hdraw as [->|[d ->]]; repeat constructor.
  - destr_if; repeat constructor.
  - destruct Hpay as [[_ ->]|(st & pre & st' & Hw)]; [constructor|exact (no_pulls_withdraw _ _ _ _ _ _ _ Hw)].
Qed.

Lemma liquidate_branches w s v t lim w1 subs :
  e_liquidate w s v t lim = Ok (w1, subs) ->
  let wl := set_eng w (eng_set_liq (w_eng w) (Some s)) in
  let p := read_position (w_eng w) v t in
  sval (p_size p) <> 0 /\
  ((w1 = fst (internal_close_position wl v t p lim LIQUIDATION_ID) /\ subs = [snd (internal_close_position wl v t p lim LIQUIDATION_ID)]) \/
   (exists r, partial_liquidation wl v t lim = Ok r /\ w1 = fst r /\ subs = [snd r])).
Proof.
  intros H wl p. unfold e_liquidate, internal_close_position in H. fold wl in H. arm H; zb; (split; [assumption|]);
    [right; eexists; split; [reflexivity|split; reflexivity]|left; split; reflexivity].
Qed.

Lemma partial_liquidation_sends w v t lim r :
  partial_liquidation w v t lim = Ok r ->
  let p := read_position (w_eng w) v t in
  let c := ec (w_eng w) in
  exists tm, fst r = set_eng w (eng_set_tmp (w_eng w) (Some tm)) /\
    ts_vamm tm = v /\ ts_trader tm = t /\ ts_side tm = position_to_side (p_size p) /\
    snd r = swap_output_msg v (direction_to_side (p_dir p)) (sval (p_size p) * e_plr c / e_dec c) (lim * e_plr c / e_dec c) PARTIAL_LIQUIDATION_ID.
Proof.
  intros H p c. unfold partial_liquidation in H. fold p c in H. minv H. inv_ok. arith_ok. subst.
  eexists. cbn [fst snd]. split; [reflexivity|]. cbn [ts_vamm ts_trader ts_side]. repeat split.
Qed.

(* A Liquidate transaction.  Either the whole position is swapped out and the liquidation reply runs, or the
   configured fraction of it is and the partial-liquidation reply runs; the ledger moves by the reply's messages. *)
Lemma liquidate_tx_cases f w s v t lim funds w' :
  exec_op f w (OEngine s (ELiquidate v t lim) funds) = Ok w' ->
  let p := read_position (w_eng w) v t in
  let c := ec (w_eng w) in
  exists tk vm vm' o wr msgs,
    (forall a, bal tk a = bal (w_tok w) a + ind (a =? A_ENGINE) funds - ind (a =? s) funds) /\
    find_position (w_eng w) v t = Some p /\ get_vamm w v = Ok vm /\ same_core wr w' /\
    (forall a, bal (w_tok w') a = bal tk a + flow A_ENGINE (if_engine (w_if w)) a msgs) /\
    let wl := with_liquidator (set_tok w tk) s in
    ((swap_output vm (w_env w) A_ENGINE (p_dir p) (sval (p_size p)) lim = Ok (vm', (o, sval (p_size p))) /\
      liquidate_reply (set_vamm (fst (internal_close_position wl v t p lim LIQUIDATION_ID)) v vm') (sval (p_size p)) o = Ok (wr, msgs)) \/
     (let b := sval (p_size p) * e_plr c / e_dec c in
      exists tm, ts_vamm tm = v /\ ts_trader tm = t /\ ts_side tm = position_to_side (p_size p) /\
        swap_output vm (w_env w) A_ENGINE (p_dir p) b (lim * e_plr c / e_dec c) = Ok (vm', (o, b)) /\
        partial_liquidation_reply (set_vamm (set_eng wl (eng_set_tmp (w_eng wl) (Some tm))) v vm') b o = Ok (wr, msgs))).
Proof.
  intros H p c. destruct (swap_tx _ _ _ _ _ _ H) as (tk & w1 & subs & _ & Hbal & He & Hrun). cbn [engine_execute] in He.
  apply liquidate_branches in He. cbv zeta in He. cbn [w_eng set_tok] in He. fold (with_liquidator (set_tok w tk) s) p in He.
  set (wl := with_liquidator (set_tok w tk) s) in *.
  assert (Hget : forall vm0, zfind v (w_vamms w) = Some vm0 -> get_vamm w v = Ok vm0) by (intros vm0 E; unfold get_vamm; rewrite E; reflexivity).
  destruct He as [Hnz [[-> ->]|(r & Hpl & -> & ->)]].
  - destruct (Hrun _ eq_refl eq_refl eq_refl) as (w2 & ev & wr & msgs & Hx & Hr & Hfl).
    cbn [internal_close_position snd swap_output_msg sm_msg sm_id] in Hx, Hr. rewrite dir_side_inv in Hx.
    apply exec_swap_output in Hx. destruct Hx as (vm & vm' & o & ba & Hz & Hsw & -> & ->).
    destruct (swap_output_amounts _ _ _ _ _ _ _ _ _ Hsw) as [_ ->].
    rewrite reply_liquidation in Hr. destruct (Hfl (liquidate_reply_leafy _ _ _ _ _ Hr)) as [Hcore Hflow].
    exists tk, vm, vm', o, wr, msgs. split; [exact Hbal|]. split; [apply read_position_found; exact Hnz|].
    split; [exact (Hget _ Hz)|]. split; [exact Hcore|]. split; [exact Hflow|]. left. auto.
  - apply partial_liquidation_sends in Hpl. cbv zeta in Hpl. destruct Hpl as (tm & Hw1 & Hv & Ht & Hside & Hmsg).
    rewrite Hmsg in Hrun. destruct (Hrun _ eq_refl eq_refl eq_refl) as (w2 & ev & wr & msgs & Hx & Hr & Hfl).
    cbn [swap_output_msg sm_msg sm_id] in Hx, Hr. rewrite dir_side_inv in Hx.
    apply exec_swap_output in Hx. destruct Hx as (vm & vm' & o & ba & Hz & Hsw & -> & ->).
    destruct (swap_output_amounts _ _ _ _ _ _ _ _ _ Hsw) as [Ho ->].
    rewrite reply_partial_liquidation in Hr. destruct (Hfl (partial_liquidation_reply_leafy _ _ _ _ _ Hr)) as [Hcore Hflow].
    rewrite Hw1 in Hz, Hsw, Hr.
    exists tk, vm, vm', o, wr, msgs. split; [exact Hbal|]. split; [apply read_position_found; exact Hnz|].
    split; [exact (Hget _ Hz)|]. split; [exact Hcore|]. split; [exact Hflow|]. right. exists tm. auto.
Qed.

Theorem liquidate_tx_pays f w s v t lim funds w' :
  exec_op f w (OEngine s (ELiquidate v t lim) funds) = Ok w' ->
  let p := read_position (w_eng w) v t in
  s <> A_ENGINE -> s <> A_IFUND -> s <> if_engine (w_if w) -> s <> e_ifund (ec (w_eng w)) ->
  (* the position was liquidated in full *)
  find_position (w_eng w') v t = None ->
  exists vm vm' o, get_vamm w v = Ok vm /\
    swap_output vm (w_env w) A_ENGINE (p_dir p) (sval (p_size p)) lim = Ok (vm', (o, sval (p_size p))) /\
    bal (w_tok w') s = bal (w_tok w) s - funds + o * e_liqfee (ec (w_eng w)) / e_dec (ec (w_eng w)) / 2 /\
    (t <> s -> t <> A_ENGINE -> t <> A_IFUND -> t <> if_engine (w_if w) -> t <> e_ifund (ec (w_eng w)) ->
       bal (w_tok w') t = bal (w_tok w) t).
Proof.
  intros H p Hs1 Hs2 Hs3 Hs4 Hnone.
  destruct (liquidate_tx_cases _ _ _ _ _ _ _ _ H) as (tk & vm & vm' & o & wr & msgs & Hbal & Hfound & Hvm & (Ee & _) & Hflow & Hcase).
  fold p in Hfound, Hcase. cbv zeta in Hcase.
  destruct Hcase as [(Hsw & Hr)|(tm & Hv & Ht & _ & _ & Hr)].
  - exists vm, vm', o. split; [exact Hvm|]. split; [exact Hsw|].
    pose proof (liquidate_reply_no_pulls _ _ _ _ _ _ _ Hr eq_refl eq_refl) as Hnp.
    match type of Hr with liquidate_reply ?W _ _ = _ =>
      destruct (liquidate_reply_spec W _ _ _ _ _ s eq_refl eq_refl Hs4 Hr) as (Hfee & Hvict & _) end.
    split; [|intros Hts Ht1 Ht2 Ht3 Ht4]; rewrite Hflow, flow_no_pulls, Hbal by assumption; unfold ind.
    + rewrite Hfee, Z.eqb_refl. destruct (Z.eqb_spec s A_ENGINE); [contradiction|]. cbn [w_eng set_vamm set_eng internal_close_position fst eng_set_tmp with_liquidator set_tok eng_set_liq ec]. lia.
    + cbn [ts_trader] in Hvict. rewrite (Hvict Hts Ht4). destruct (Z.eqb_spec t A_ENGINE); [contradiction|]. destruct (Z.eqb_spec t s); [contradiction|]. lia.
  - (* a partial liquidation leaves a position *)
    exfalso. destruct (partial_liquidation_reply_no_stamp _ _ _ _ _ tm Hr eq_refl) as (p' & Hf' & _).
    rewrite Hv, Ht, <- Ee in Hf'. congruence.
Qed.

Lemma partial_liquidation_reply_pays w i o w' msgs tm liq :
  partial_liquidation_reply w i o = Ok (w', msgs) -> e_tmp (w_eng w) = Some tm -> e_liq (w_eng w) = Some liq ->
  let c := ec (w_eng w) in
  let fee := o * e_liqfee c / e_dec c / 2 in
  liq <> e_ifund c ->
  transfers_to liq msgs = fee /\ transfers_to (e_ifund c) msgs = fee /\
  (forall a, a <> liq -> a <> e_ifund c -> transfers_to a msgs = 0) /\
  no_pulls msgs /\ w_tok w' = w_tok w /\ w_if w' = w_if w.
Proof.
  intros H Htmp Hliq c fee Hne. unfold partial_liquidation_reply, need_tmp, need_liq in H. rewrite Htmp, Hliq in H. cbn [bind] in H.
  fold c in H. arm H. arith_ok. subst.
  (* the messages: nothing, or the fund's half followed by the withdrawal of the liquidator's half *)
  match goal with Hm : (if negb (_ =? 0) then _ else _) = Ok (_, ?m) |- _ =>
    assert (Hmsgs : fee = 0 /\ m = [] \/ exists st' wm, withdraw w (es (w_eng w)) liq fee 0 = Ok (st', wm) /\ m = execute_transfer (e_ifund c) fee :: wm)
      by (minv Hm; inv_ok; zb; [right|auto];
          match goal with Hw : withdraw _ _ _ _ _ = Ok ?x |- _ => exists (fst x), (snd x); destruct x; auto end); clear Hm end.
  split; [|split; [|split; [|split; [|split; reflexivity]]]].
  all: destruct Hmsgs as [[E ->]|(st' & wm & Hw & ->)]; try rewrite E; try (intros; reflexivity); try constructor.
  all: cbn [transfers_to sm_msg execute_transfer]; try rewrite (transfers_to_withdraw _ _ _ _ _ _ _ _ Hw); try exact I.
  - rewrite Z.eqb_refl. destruct (Z.eqb_spec (e_ifund c) liq); [congruence|lia].
  - rewrite Z.eqb_refl. destruct (Z.eqb_spec liq (e_ifund c)); [contradiction|lia].
  - intros a Ha1 Ha2. rewrite (transfers_to_withdraw _ _ _ _ _ _ _ a Hw). destruct (Z.eqb_spec (e_ifund c) a); [congruence|]. destruct (Z.eqb_spec liq a); [congruence|reflexivity].
  - exact (no_pulls_withdraw _ _ _ _ _ _ _ Hw).
Qed.

Theorem partial_liquidation_tx f w s v t lim funds w' :
  exec_op f w (OEngine s (ELiquidate v t lim) funds) = Ok w' ->
  let p := read_position (w_eng w) v t in
  let c := ec (w_eng w) in
  coherent p -> 0 <= e_plr c -> 0 < e_dec c ->
  s <> A_ENGINE -> s <> A_IFUND -> s <> if_engine (w_if w) -> s <> e_ifund c ->
  (* the position was liquidated in part: a record is left *)
  (exists p1, find_position (w_eng w') v t = Some p1) ->
  exists p' vm vm' o,
    find_position (w_eng w') v t = Some p' /\
    get_vamm w v = Ok vm /\
    let b := sval (p_size p) * e_plr c / e_dec c in
    swap_output vm (w_env w) A_ENGINE (p_dir p) b (lim * e_plr c / e_dec c) = Ok (vm', (o, b)) /\
    toZ (p_size p') = (if toZ (p_size p) <? 0 then toZ (p_size p) + b else toZ (p_size p) - b) /\
    p_dir p' = p_dir p /\
    bal (w_tok w') s = bal (w_tok w) s - funds + o * e_liqfee c / e_dec c / 2.
Proof.
  intros H p c Hco Hplr0 HD Hs1 Hs2 Hs3 Hs4 [p1 Hleft].
  destruct (liquidate_tx_cases _ _ _ _ _ _ _ _ H) as (tk & vm & vm' & o & wr & msgs & Hbal & Hfound & Hvm & (Ee & _) & Hflow & Hcase).
  fold p c in Hfound, Hcase. cbv zeta in Hcase. rewrite Ee in *.
  destruct Hcase as [(_ & Hr)|(tm & Hv & Ht & Hside & Hsw & Hr)].
  - (* a full liquidation removes the record *)
    exfalso. eapply liquidate_reply_marks in Hr; [|reflexivity]. cbn [ts_vamm ts_trader] in Hr. destruct Hr as (_ & _ & Hnone). congruence.
  - set (b := sval (p_size p) * e_plr c / e_dec c) in *.
    match type of Hr with partial_liquidation_reply ?W _ _ = _ => set (ws := W) in * end.
    destruct (partial_liquidation_reply_pays ws b o wr msgs tm s Hr eq_refl eq_refl Hs4) as (Hfee & _ & _ & Hnp & _).
    pose proof (partial_liquidation_reply_shape _ _ _ _ _ tm Hr eq_refl) as Hshape. cbv zeta in Hshape. rewrite Hv, Ht, Hside in Hshape.
    replace (get_position (w_eng ws) (w_env ws) v t _) with p in Hshape
      by (unfold get_position; change (find_position (w_eng ws) v t) with (find_position (w_eng w) v t); rewrite Hfound; reflexivity).
    destruct Hshape as (p' & (Wp & _) & Hdir & Hadd). destruct Hco as [Hcw _].
    assert (Hb0 : 0 <= b) by (unfold b; apply Z.div_pos; [apply Z.mul_nonneg_nonneg; [exact Hcw|exact Hplr0]|exact HD]).
    replace (sltb (p_size p) szero) with (toZ (p_size p) <? 0) in Hadd by (symmetry; change szero with (spos 0); apply sltb_spos0; [exact Hcw|lia]).
    exists p', vm, vm', o. split; [unfold find_position; rewrite Wp; apply zfind_zset_same|]. split; [exact Hvm|].
    split; [exact Hsw|]. split; [|split; [exact Hdir|]].
    + destruct (toZ (p_size p) <? 0); apply sadd_toZ0 in Hadd; auto using spos_wf0, sneg_wf0;
        rewrite ?toZ_spos, ?sneg_toZ in Hadd; destruct Hadd as (Za & _); lia.
    + rewrite Hflow, flow_no_pulls, Hfee, Hbal by assumption. unfold ind. rewrite Z.eqb_refl.
      destruct (Z.eqb_spec s A_ENGINE); [contradiction|]. change (ec (w_eng ws)) with c. lia.
Qed.
