(* Association-list maps keyed by Z. *)
From MP.Model Require Import Prelude.
From MP.Proofs Require Import Tactics.

Lemma zfind_zset_same {A} k (v : A) l : zfind k (zset k v l) = Some v.
Proof.
  induction l as [|[k' b] t IH]; cbn [zset zfind].
  - rewrite Z.eqb_refl. reflexivity.
  - destruct (k =? k') eqn:E; cbn [zfind]; rewrite ?Z.eqb_refl, ?E; auto.
Qed.

Lemma zfind_zset_other {A} k k2 (v : A) l : k2 <> k -> zfind k2 (zset k v l) = zfind k2 l.
Proof.
  intros Hn. induction l as [|[k' b] t IH]; cbn [zset zfind].
  - destruct (Z.eqb_spec k2 k); [lia|reflexivity].
  - destruct (Z.eqb_spec k k'); cbn [zfind].
    + subst. destruct (Z.eqb_spec k2 k'); [lia|reflexivity].
    + destruct (k2 =? k'); auto.
Qed.

Lemma zfind_zdel_same {A} k (l : list (Z * A)) : zfind k (zdel k l) = None.
Proof.
  induction l as [|[k' b] t IH]; cbn [zdel zfind]; [reflexivity|].
  destruct (k =? k') eqn:E; [exact IH|]. cbn [zfind]. rewrite E. exact IH.
Qed.

Lemma zfind_zdel_other {A} k k2 (l : list (Z * A)) : k2 <> k -> zfind k2 (zdel k l) = zfind k2 l.
Proof.
  intros Hn. induction l as [|[k' b] t IH]; cbn [zdel zfind]; [reflexivity|].
  destruct (Z.eqb_spec k k').
  - subst. destruct (Z.eqb_spec k2 k'); [lia|exact IH].
  - cbn [zfind]. destruct (k2 =? k'); auto.
Qed.

Lemma zdel_not_in {A} t (l : list (Z * A)) : ~ In t (map fst l) -> zdel t l = l.
Proof.
  induction l as [|[k q] r IH]; cbn; intros H; [reflexivity|].
  destruct (Z.eqb_spec t k); [subst; tauto|]. f_equal. apply IH. tauto.
Qed.

Lemma in_map_zset {A} t (p : A) l k : In k (map fst (zset t p l)) -> k = t \/ In k (map fst l).
Proof.
  induction l as [|[k' q] r IH]; cbn [zset map fst In].
  - intros [H|[]]; auto.
  - destruct (t =? k') eqn:E; cbn [map fst In].
    + apply Z.eqb_eq in E. subst. intros [H|H]; auto.
    + intros [H|H]; auto. apply IH in H. tauto.
Qed.

Lemma nodup_zset {A} t (p : A) l : NoDup (map fst l) -> NoDup (map fst (zset t p l)).
Proof.
  induction l as [|[k q] r IH]; cbn [zset map fst]; intros Hn.
  - constructor; [intros []|constructor].
  - inversion Hn as [|? ? Hni Hn']; subst. destruct (Z.eqb_spec t k).
    + subst. cbn [map fst]. constructor; assumption.
    + cbn [map fst]. constructor; [|apply IH; assumption].
      intros Hin. apply in_map_zset in Hin. destruct Hin; [lia|contradiction].
Qed.

Lemma in_map_zdel {A} t l k : In k (map fst (@zdel A t l)) -> In k (map fst l).
Proof.
  induction l as [|[k' q] r IH]; cbn [zdel map fst In]; [tauto|].
  destruct (t =? k'); cbn [map fst In]; intros H; [right; auto|]. destruct H; auto.
Qed.

Lemma nodup_zdel {A} t l : NoDup (map fst l) -> NoDup (map fst (@zdel A t l)).
Proof.
  induction l as [|[k q] r IH]; cbn [zdel map fst]; intros Hn; [constructor|].
  inversion Hn as [|? ? Hni Hn']; subst. destruct (t =? k); [apply IH; exact Hn'|].
  cbn [map fst]. constructor; [|apply IH; exact Hn']. intros Hin. apply in_map_zdel in Hin. apply Hni. exact Hin.
Qed.

Lemma forall_zset {A} (P : Z * A -> Prop) t p l : Forall P l -> P (t, p) -> Forall P (zset t p l).
Proof.
  induction l as [|[k q] r IH]; cbn [zset]; intros Hf Hp; [repeat constructor; assumption|].
  inversion Hf; subst. destruct (t =? k); constructor; auto.
Qed.

Lemma forall_zdel {A} (P : Z * A -> Prop) t l : Forall P l -> Forall P (@zdel A t l).
Proof.
  induction l as [|[k q] r IH]; cbn [zdel]; intros Hf; [constructor|].
  inversion Hf; subst. destruct (t =? k); [auto|constructor; auto].
Qed.

Lemma forall_zfind {A} (P : Z * A -> Prop) t l p : Forall P l -> zfind t l = Some p -> P (t, p).
Proof.
  induction l as [|[k q] r IH]; cbn [zfind]; intros Hf Hz; [discriminate|].
  inversion Hf as [|? ? Hq Hr]; subst. destruct (Z.eqb_spec t k); [injection Hz as <-; subst; exact Hq | auto].
Qed.
