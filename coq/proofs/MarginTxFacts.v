(* C05 end to end: WithdrawMargin and DepositMargin transactions on the ledger and on the stored position. *)
From MP.Model Require Import Prelude U128 SInt Feed Vamm VammOps Token World Engine Runtime.
From MP.Proofs Require Import Tactics EngineArith MirrorFacts MoreFacts FlowFacts CloseTxFacts.

Lemma withdraw_margin_msgs w t v amount w1 msgs :
  e_withdraw_margin w t v amount = Ok (w1, msgs) -> Forall leafy msgs /\ no_pulls msgs.
Proof.
  unfold e_withdraw_margin. intros H. arm H.
  match goal with Hw : withdraw _ _ _ _ _ = Ok _ |- _ =>
    split; [leafy_goal|exact (no_pulls_withdraw _ _ _ _ _ _ _ Hw)] end.
Qed.

Theorem withdraw_margin_tx f w t v amount funds w' :
  exec_op f w (OEngine t (EWithdrawMargin v amount) funds) = Ok w' ->
  let p := read_position (w_eng w) v t in
  pos_wf p -> cpf_wf (w_eng w) v -> 0 < e_dec (ec (w_eng w)) -> 0 <= amount ->
  t <> A_ENGINE -> t <> A_IFUND -> t <> if_engine (w_if w) ->
  bal (w_tok w') t = bal (w_tok w) t - funds + amount /\
  exists p', find_position (w_eng w') v t = Some p' /\
    p_margin p' = p_margin p - amount - funding_owed w v p /\ 0 <= p_margin p' /\
    p_size p' = p_size p /\ p_notional p' = p_notional p /\ p_lupf p' = cumulative_premium_fraction (w_eng w) v.
Proof.
  intros H p Hp Hc HD Ha Ht1 Ht2 Ht3.
  destruct (engine_tx _ _ _ _ _ _ H) as (tk & w1 & subs & n & _ & _ & Hbal0 & Ew & Et & Ei & Hd). cbn [engine_execute] in Ew.
  destruct (withdraw_margin_msgs _ _ _ _ _ _ Ew) as (Hl & Hnp).
  pose proof (withdraw_margin_spec _ _ _ _ _ _ Ew) as Hspec. cbv zeta in Hspec. cbn [w_eng set_tok] in Hspec. fold p in Hspec.
  destruct (Hspec Hp Hc HD Ha) as (p' & Hf & Hm & Hm0 & Hlu & Hsz & _ & Hn & Htr & _).
  destruct (dispatched_leafy_flow _ _ _ _ _ _ _ Hd Hl) as [_ Hflow].
  destruct (dispatched_leafy_core _ _ _ _ _ _ _ Hd Hl) as (Ee & _).
  split.
  - rewrite (Hflow t), Et, Ei, flow_no_pulls, Htr, Hbal0 by assumption. unfold ind. rewrite Z.eqb_refl.
    destruct (Z.eqb_spec t A_ENGINE); [contradiction|]. lia.
  - exists p'. rewrite Ee. split; [exact Hf|]. repeat split; auto.
Qed.

Theorem deposit_margin_tx f w t v amount funds w' :
  exec_op f w (OEngine t (EDepositMargin v amount) funds) = Ok w' ->
  t <> A_ENGINE ->
  exists p, find_position (w_eng w) v t = Some p /\
    find_position (w_eng w') v t = Some (mkPos (p_dir p) (p_size p) (p_margin p + amount) (p_notional p) (p_lupf p) (p_block p)) /\
    amount <> 0 /\ bal (w_tok w') t = bal (w_tok w) t - amount.
Proof.
  intros H Ht1.
  destruct (engine_tx _ _ _ _ _ _ H) as (tk & w1 & subs & n & E5 & Hfu & Hbal0 & Ew & Et & Ei & Hd). cbn [engine_execute] in Ew.
  pose proof (deposit_margin_spec _ _ _ _ _ _ _ Ew) as (p & Hf0 & Hf1 & Hnz & _ & Hmsgs). cbn [w_eng w_tok set_tok] in Hf0, Hmsgs.
  (* native: the attached funds are the amount, no message; cw20: nothing can be attached, the amount is pulled from the wallet *)
  assert (Hl : Forall leafy subs /\ flow A_ENGINE (if_engine (w_if w)) t subs = funds - amount).
  { rewrite E5 in Hmsgs. destruct Hfu as [->|En]; destruct (t_native (w_tok w)) eqn:En'; try discriminate En.
    1,3: destruct Hmsgs as [<- ->]; split; [constructor|cbn [flow]; lia].
    subst subs. split; [constructor; [apply noreply_leafy_transfer_from|constructor]|].
    unfold execute_transfer_from. cbn [w_tok set_tok]. rewrite E5. cbn [flow sm_msg]. unfold ind. rewrite Z.eqb_refl.
    destruct (Z.eqb_spec t A_ENGINE); [contradiction|lia]. }
  destruct Hl as [Hl Hfl].
  destruct (dispatched_leafy_flow _ _ _ _ _ _ _ Hd Hl) as [_ Hflow].
  destruct (dispatched_leafy_core _ _ _ _ _ _ _ Hd Hl) as (Ee & _).
  exists p. rewrite Ee. split; [exact Hf0|]. split; [exact Hf1|]. split; [exact Hnz|].
  rewrite (Hflow t), Et, Ei, Hfl, Hbal0. unfold ind. rewrite Z.eqb_refl. destruct (Z.eqb_spec t A_ENGINE); [contradiction|lia].
Qed.
