(* C18, feed side: what `drop` leaves of the round list; the feed's history as a list; a single snapshot's TWAP. *)
From MP.Model Require Import Prelude U128 SInt Feed Vamm.
From MP.Proofs Require Import Tactics.

(* submissions in order of submission (oldest first) *)
Definition submissions (f : rfeed) : list round := rev (rf_rounds f).

Lemma drop_spec {A} n (l : list A) :
  match drop n l with
  | [] => (length l <= n)%nat
  | x :: rest => nth_error l n = Some x /\ length l = (n + S (length rest))%nat
  end.
Proof.
  revert l. induction n as [|n IH]; intros [|y l]; cbn; auto; try lia.
  specialize (IH l). destruct (drop n l); [lia|]. destruct IH. split; [assumption|lia].
Qed.

Lemma calc_twap_single v e o interval cur :
  snaps v = [cur] -> calc_twap v e o interval = snapshot_price (v_dec (vc v)) o cur \/
  exists er, calc_twap v e o interval = Err er.
Proof.
  intros Hs. unfold calc_twap. rewrite Hs. destruct (snapshot_price _ _ _) as [p|er] eqn:E; cbn [bind]; [|eauto].
  destruct (interval =? 0); [auto|]. destruct (sub64 (now e) interval); cbn [bind]; [|eauto].
  cbn [length Z.of_nat Z.eqb Pos.of_succ_nat Pos.eqb orb]. auto.
Qed.
