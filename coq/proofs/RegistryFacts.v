(* The insurance fund's registry: no duplicates and at most three vAMMs, kept by every transaction; a shutdown's SetOpen
   messages close every registered vAMM.  Used by the registry and shutdown theorems of C14 and by ConfigReachFacts. *)
From MP.Model Require Import Prelude U128 SInt Feed Vamm VammOps Token World Engine Runtime.
From MP.Proofs Require Import Tactics MapFacts RuntimeFacts HandlerFacts.

Definition reg_ok (w : world) : Prop :=
  NoDup (if_vamms (w_if w)) /\ (length (if_vamms (w_if w)) <= 3)%nat.

Lemma zmem_In a l : zmem a l = true <-> In a l.
Proof.
  unfold zmem. rewrite existsb_exists. split.
  - intros (x & Hx & E). apply Z.eqb_eq in E. subst. exact Hx.
  - intros H. exists a. split; [exact H|apply Z.eqb_refl].
Qed.

Lemma swap_remove_In a l x : In x (swap_remove a l) -> In x l.
Proof.
  induction l as [|y t IH]; cbn [swap_remove]; [auto|].
  destruct (Z.eqb_spec y a) as [->|Hne].
  - destruct (rev t) as [|lst rt] eqn:Er; [intros []|].
    intros H. right. apply in_rev. rewrite Er. destruct H as [<-|H]; [left; reflexivity|right; apply in_rev in H; exact H].
  - intros [<-|H]; [left; reflexivity|right; auto].
Qed.

Lemma swap_remove_length a l : (length (swap_remove a l) <= length l)%nat.
Proof.
  induction l as [|y t IH]; cbn [swap_remove length]; [lia|].
  destruct (y =? a).
  - destruct (rev t) as [|lst rt] eqn:Er; cbn [length]; [lia|].
    rewrite rev_length. assert (length (rev t) = length t) by apply rev_length. rewrite Er in H. cbn [length] in H. lia.
  - cbn [length]. lia.
Qed.

Lemma swap_remove_NoDup a l : NoDup l -> NoDup (swap_remove a l).
Proof.
  induction 1 as [|y t Hy Ht IH]; cbn [swap_remove]; [constructor|].
  destruct (Z.eqb_spec y a) as [->|Hne].
  - destruct (rev t) as [|lst rt] eqn:Er; [constructor|].
    pose proof (NoDup_rev Ht) as Hr. rewrite Er in Hr. inversion Hr as [|? ? Hl Hrt]; subst.
    constructor; [intros H; apply in_rev in H; contradiction|exact (NoDup_rev Hrt)].
  - constructor; [intros H; apply swap_remove_In in H; contradiction|exact IH].
Qed.

Lemma reg_ok_same w w' : w_if w' = w_if w -> reg_ok w -> reg_ok w'.
Proof. intros E H. unfold reg_ok. rewrite E. exact H. Qed.

(* a transaction of the insurance fund: its handler, then the dispatch of the handler's messages *)
Lemma exec_ifund_inv f w s m w' : exec_op f w (OIfund s m) = Ok w' ->
  exists w1 subs n, dispatched f w1 0 A_IFUND subs w' n /\
    match m with
    | IUpdateOwner a => if_update_owner w s a
    | IAddVamm v => if_add_vamm w s v
    | IRemoveVamm v => if_remove_vamm w s v
    | IWithdraw amt => if_withdraw w s amt
    | IShutdown => if_shutdown w s
    end = Ok (w1, subs).
Proof.
  cbn [exec_op]. generalize FUEL. intros fuel H. arm H.
  match goal with Hd : dispatch _ _ _ _ _ _ = Ok _ |- _ => apply dispatch_dispatched in Hd end. eauto 6.
Qed.

Lemma exec_op_reg f w o w' : exec_op f w o = Ok w' -> reg_ok w -> reg_ok w'.
Proof.
  intros H Hr.
  destruct o as [| | |s m| | |]; try (apply (reg_ok_same w); [eapply exec_other_if; [exact H|discriminate]|exact Hr]).
  apply exec_ifund_inv in H. destruct H as (w1 & subs & n & Hd & Hx).
  apply (reg_ok_same _ _ (dispatched_if _ _ _ _ _ _ _ Hd)). destruct Hr as [Hnd Hlen].
  destruct m; [unfold if_update_owner in Hx|unfold if_add_vamm in Hx|unfold if_remove_vamm in Hx|unfold if_withdraw in Hx|unfold if_shutdown in Hx];
    arm Hx; unfold reg_ok; cbn [w_if set_if if_vamms]; try (split; assumption).
  - (* add: not a member, fewer than three *)
    zb. split.
    + apply NoDup_rev in Hnd. rewrite <- (rev_involutive (if_vamms (w_if w) ++ [v])). apply NoDup_rev. rewrite rev_app_distr. cbn [rev app].
      constructor; [|exact Hnd]. intros Hin. apply in_rev in Hin.
      match goal with Hm : zmem v _ = false |- _ => rewrite (proj2 (zmem_In v _) Hin) in Hm; discriminate end.
    + rewrite app_length. cbn [length]. lia.
  - split; [apply swap_remove_NoDup; exact Hnd|]. pose proof (swap_remove_length v (if_vamms (w_if w))). lia.
Qed.

Definition closed_at (w : world) (v : addr) : Prop := exists vm, get_vamm w v = Ok vm /\ v_open (vs vm) = false.

Lemma set_open_false_closed vm e s vm' : set_open vm e s false = Ok vm' -> v_open (vs vm') = false.
Proof. unfold set_open. intros H. minv H. inv_ok. reflexivity. Qed.

Lemma closed_at_set_vamm w v vm' u : v_open (vs vm') = false -> closed_at w u -> closed_at (set_vamm w v vm') u.
Proof.
  intros Hc (vm & Hg & Ho). unfold closed_at, get_vamm. cbn [w_vamms set_vamm].
  destruct (Z.eq_dec u v) as [->|Hne].
  - rewrite zfind_zset_same. eauto.
  - rewrite zfind_zset_other by exact Hne. unfold get_vamm in Hg. exists vm. split; [exact Hg|exact Ho].
Qed.

Definition close_msg (v : addr) : submsg := mkSub (MSetOpen v false) 0 RNever.

Lemma dispatched_close_all l : forall f w n c w' n',
  dispatched f w n c (map close_msg l) w' n' ->
  (forall v, In v l -> closed_at w' v) /\ (forall u, closed_at w u -> closed_at w' u).
Proof.
  induction l as [|v rest IH]; intros f w n c w' n' H;
    inversion H as [|? ? ? ? ? ? ? ? ? ? _ Hr _ Hd|? ? ? ? ? ? ? ? ? ? ? ? ? ? _ _ Hw]; subst; [|clear H|discriminate Hw].
  - split; [intros v []|auto].
  - inversion Hr as [? ? ? Hx|]; subst. cbn [close_msg sm_msg exec_simple] in Hx. arm Hx.
    match goal with Hs : set_open _ _ _ false = Ok _ |- _ => apply set_open_false_closed in Hs; rename Hs into Hc end.
    destruct (IH _ _ _ _ _ _ Hd) as [H1 H2]. split.
    + intros u [<-|Hin]; [|exact (H1 u Hin)].
      apply H2. unfold closed_at, get_vamm. cbn [w_vamms set_vamm]. rewrite zfind_zset_same. eauto.
    + intros u Hu. apply H2, closed_at_set_vamm; assumption.
Qed.

Lemma vamms_open_spec w l opens : vamms_open w l = Ok opens ->
  forall v, In v l -> In v opens \/ closed_at w v.
Proof.
  revert opens. induction l as [|x rest IH]; intros opens H v Hin; [destruct Hin|].
  cbn [vamms_open] in H. destruct (get_vamm w x) as [vm|] eqn:Eg; [|discriminate]. cbn [bind] in H.
  destruct (vamms_open w rest) as [r|] eqn:Er; [|discriminate]. cbn [bind] in H. inv_ok.
  destruct Hin as [<-|Hin].
  - destruct (v_open (vs vm)) eqn:Eo; [left; left; reflexivity|right; exists vm; auto].
  - destruct (IH r eq_refl v Hin) as [Hi|Hc]; [|right; exact Hc].
    left. destruct (v_open (vs vm)); [right; exact Hi|exact Hi].
Qed.
