(* Time-weighted prices stay within the prices observed in the window (C18). *)
From Coq Require Import Sorted.
From MP.Model Require Import Prelude U128 SInt Feed Vamm.
From MP.Proofs Require Import Tactics.

(* A time-weighted sum of prices within [lo, hi] stays between lo and hi times the time covered,
   so its quotient by that time is within [lo, hi]. *)
Lemma weighted_step lo hi W T p d :
  lo * T <= W <= hi * T -> lo <= p <= hi -> 0 <= d -> lo * (T + d) <= W + p * d <= hi * (T + d).
Proof. nia. Qed.

Lemma div_between lo hi W T : 0 < T -> lo * T <= W <= hi * T -> lo <= W / T <= hi.
Proof.
  intros HT [H1 H2]. split.
  - apply Z.div_le_lower_bound; lia.
  - apply Z.div_le_upper_bound; lia.
Qed.

(* the snapshots the TWAP walk looks at: up to and including the first one at or before `base` *)
Fixpoint window (base : Z) (l : list snapshot) : list snapshot :=
  match l with
  | [] => []
  | s :: rest => if s_time s <=? base then [s] else s :: window base rest
  end.

Definition prices_within (dec : Z) (o : twap_opt) (lo hi : Z) (l : list snapshot) : Prop :=
  forall s p, In s l -> snapshot_price dec o s = Ok p -> lo <= p <= hi.

(* `period` is the time covered so far, back to `prev`; the walk stops at `base`, `interval` before now *)
Lemma twap_loop_bounds dec o lo hi : forall rest base prev period weighted interval r,
  twap_loop dec o rest base prev period weighted interval = Ok r ->
  prices_within dec o lo hi (window base rest) ->
  interval = period + (prev - base) -> base <= prev -> 0 <= period ->
  lo * period <= weighted <= hi * period ->
  lo <= r <= hi.
Proof.
  induction rest as [|s rest IH]; intros base prev period weighted interval r H Hp Ei Hb Hp0 Hw;
    cbn [twap_loop] in H.
  - apply cdiv_ok in H. destruct H as [-> Hne]. apply div_between; [lia|exact Hw].
  - inv_bind H. cbn [window] in Hp.
    destruct (Z.leb_spec (s_time s) base) as [Hle|Hgt].
    + repeat inv_bind H. apply sub64_ok in Hx0. destruct Hx0 as [-> _]. arith_ok. subst.
      apply div_between; [lia|]. apply weighted_step; [exact Hw|apply (Hp s x); [left; reflexivity|exact Hx]|lia].
    + repeat inv_bind H. apply sub64_ok in Hx0. destruct Hx0 as [-> Hle]. arith_ok. subst.
      apply (IH base (s_time s) _ _ _ _ H); try lia.
      * intros s' p' Hin. apply Hp. right. exact Hin.
      * apply weighted_step; [exact Hw|apply (Hp s x); [left; reflexivity|exact Hx]|lia].
Qed.

(* one snapshot per block, carrying the block's final reserves *)
Definition snaps_ok (l : list snapshot) : Prop :=
  StronglySorted (fun a b => s_height b < s_height a) l.

Fixpoint rwindow (base : Z) (l : list round) : list round :=
  match l with
  | [] => []
  | r :: rest => if r_time r <=? base then [r] else r :: rwindow base rest
  end.

Lemma rf_twap_loop_bounds lo hi : forall rest base ts cumulative weighted interval r,
  rf_twap_loop rest base ts cumulative weighted interval = Ok r ->
  (forall x, In x (rwindow base rest) -> lo <= r_price x <= hi) ->
  interval = cumulative + (ts - base) -> base <= ts -> 0 <= cumulative ->
  lo * cumulative <= weighted <= hi * cumulative ->
  lo <= r <= hi.
Proof.
  induction rest as [|x rest IH]; intros base ts cumulative weighted interval r H Hp Ei Hb Hc0 Hw;
    cbn [rf_twap_loop] in H.
  - apply cdiv_ok in H. destruct H as [-> Hne]. apply div_between; [lia|exact Hw].
  - cbn [rwindow] in Hp.
    destruct (Z.leb_spec (r_time x) base) as [Hle|Hgt].
    + repeat inv_bind H. apply sub64_ok in Hx. destruct Hx as [-> _]. arith_ok. subst.
      apply div_between; [lia|]. apply weighted_step; [exact Hw|apply Hp; left; reflexivity|lia].
    + repeat inv_bind H. apply sub64_ok in Hx. destruct Hx as [-> Hle]. arith_ok. subst.
      apply (IH base (r_time x) _ _ _ _ H); try lia.
      * intros y Hin. apply Hp. right. exact Hin.
      * apply weighted_step; [exact Hw|apply Hp; left; reflexivity|lia].
Qed.
