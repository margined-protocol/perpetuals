(* C16, "all traders in later blocks are not restricted": no restriction marker (last restriction block, `vm_lrb`)
   exceeds the current height, and every transaction keeps it so; the history theorems are in props/C16.v.
   Then: the marker carried through a Liquidate transaction's message tree (the stamp of an OpenPosition goes through
   BandFacts.open_position_tx_goal). *)
From MP.Model Require Import Prelude U128 SInt Feed Vamm VammOps Token World Engine Runtime.
From MP.Proofs Require Import Tactics MapFacts RuntimeFacts HandlerFacts MoreFacts ResidueFacts MirrorFacts PendingFacts.

Definition lrb_le (w : world) : Prop := forall v, vm_lrb (read_vmap (w_eng w) v) <= height (w_env w).

Lemma lrb_le_same w w' : e_vmap (w_eng w') = e_vmap (w_eng w) -> w_env w' = w_env w -> lrb_le w -> lrb_le w'.
Proof. intros E1 E2 H v. unfold read_vmap. rewrite E1, E2. exact (H v). Qed.

(* a reply arm leaves a vAMM's marker alone or, on a liquidation, sets it to the current height *)
Lemma contract_reply_marker w c id r w' subs : contract_reply w c id r = Ok (w', subs) ->
  forall v, vm_lrb (read_vmap (w_eng w') v) = vm_lrb (read_vmap (w_eng w) v) \/
            vm_lrb (read_vmap (w_eng w') v) = height (w_env w).
Proof.
  unfold contract_reply, engine_reply. intros H v.
  destruct (c =? A_ENGINE); [|discriminate]. destruct r as [[]|]; try discriminate;
    repeat (destr_if_in H; [|try discriminate H]).
  all: unfold update_position_reply, reverse_position_reply, close_position_reply, partial_close_position_reply,
         liquidate_reply, partial_liquidation_reply, pay_funding_reply in H.
  all: arm H; cbn [w_eng set_eng]; try (left; reflexivity).
  1,2: destruct (Z.eq_dec v (ts_vamm x)) as [->|Hn];
         [right; apply lrb_after_enter|left; rewrite lrb_after_enter_other by exact Hn; reflexivity].
  match goal with Ha : append_cumulative_premium_fraction _ _ _ = Ok _ |- _ => unfold append_cumulative_premium_fraction in Ha; arm Ha end.
  left. unfold read_vmap at 1, eng_set_vmap; cbn [e_vmap].
  destruct (Z.eq_dec v vamm) as [->|Hn]; [rewrite zfind_zset_same|rewrite zfind_zset_other by exact Hn]; reflexivity.
Qed.

Lemma dispatched_lrb f w n sender subs w' n' : dispatched f w n sender subs w' n' -> lrb_le w -> lrb_le w'.
Proof.
  apply (dispatched_inv lrb_le).
  - intros w0 s0 m w1 ev Hx. apply lrb_le_same; [rewrite (exec_simple_eng _ _ _ _ _ Hx); reflexivity|exact (exec_simple_env _ _ _ _ _ Hx)].
  - intros w0 s0 id ev w1 sb Hx Hle v. specialize (Hle v).
    destruct (contract_reply_marker _ _ _ _ _ _ Hx v) as [E|E]; rewrite E, (contract_reply_env _ _ _ _ _ _ Hx); lia.
Qed.

Lemma engine_execute_lrb w s m funds w1 subs : engine_execute w s m funds = Ok (w1, subs) ->
  e_vmap (w_eng w1) = e_vmap (w_eng w) /\ w_env w1 = w_env w.
Proof.
  intros H. destruct m; cbn [engine_execute] in H.
  all: unfold e_update_config, e_update_pauser, e_add_whitelist, e_remove_whitelist, e_open_position, e_close_position, e_liquidate,
         internal_close_position, e_pay_funding, e_deposit_margin, e_withdraw_margin, e_set_pause in H; arm H.
  all: try match goal with Hp : partial_liquidation _ _ _ _ = Ok _ |- _ => unfold partial_liquidation in Hp; arm Hp end.
  all: split; reflexivity.
Qed.

Definition block_ok (o : op) : Prop := match o with OBlock _ dh => 0 <= dh | _ => True end.

Lemma exec_op_lrb f w o w' : exec_op f w o = Ok w' -> block_ok o -> lrb_le w -> lrb_le w'.
Proof.
  intros H Hb Hle. pose proof (exec_op_cases _ _ _ _ H) as Hk. destruct o.
  - subst. intros v. cbn [w_eng w_env set_env height]. cbn [block_ok] in Hb. specialize (Hle v). lia.
  - destruct Hk as (t & w1 & subs & n & He & Hd).
    destruct (engine_execute_lrb _ _ _ _ _ _ He) as [E1 E2]. exact (dispatched_lrb _ _ _ _ _ _ _ Hd (lrb_le_same _ _ E1 E2 Hle)).
  - destruct Hk as (vm & vm' & _ & ->). exact Hle.
  - destruct Hk as (i & subs & n & _ & Hd). exact (dispatched_lrb _ _ _ _ _ _ _ Hd Hle).
  - destruct Hk as (p & subs & n & _ & Hd). exact (dispatched_lrb _ _ _ _ _ _ _ Hd Hle).
  - destruct Hk as [fd ->]. exact Hle.
  - destruct Hk as [t ->]. exact Hle.
Qed.

Lemma step_lrb f w o : block_ok o -> lrb_le w -> lrb_le (fst (step_f f w o)).
Proof. intros Hb Hle. apply (step_f_inv lrb_le); [|exact Hle]. intros w' E. exact (exec_op_lrb _ _ _ _ E Hb Hle). Qed.

Definition marked (v0 : addr) (w : world) : Prop := vm_lrb (read_vmap (w_eng w) v0) = height (w_env w).

Lemma marked_core v0 : core_closed (marked v0).
Proof. intros w w1 (E1 & _ & E3) H. unfold marked in *. rewrite E1, E3. exact H. Qed.

Definition pendl (v0 : addr) (w : world) (m : msg) (id : Z) : Prop :=
  exists tm, e_tmp (w_eng w) = Some tm /\ ts_vamm tm = v0 /\
    (id = LIQUIDATION_ID \/ id = PARTIAL_LIQUIDATION_ID) /\ exists d b l, m = MSwapOutput v0 d b l.

Lemma pendl_core v0 : core_closed_p (pendl v0).
Proof. intros w w1 m id (E1 & _) H. unfold pendl in *. rewrite E1. exact H. Qed.

Lemma pendl_swap v0 w m id : pendl v0 w m id -> is_swap m = true.
Proof. intros (tm & _ & _ & _ & d & b & l & ->). reflexivity. Qed.

Lemma pair_marked v0 w m id w1 ev w2 subs :
  pendl v0 w m id -> exec_simple w A_ENGINE m = Ok (w1, ev) ->
  contract_reply w1 A_ENGINE id (Ok ev) = Ok (w2, subs) -> readyg (marked v0) (pendl v0) w2 subs.
Proof.
  intros (tm & Htmp & <- & Hid & d & b & l & ->) Hex Hre. pose proof (contract_reply_env _ _ _ _ _ _ Hre) as He.
  apply exec_swap_output in Hex. destruct Hex as (vm & vm' & qa & ba & _ & _ & -> & ->).
  destruct Hid as [-> | ->]; autorewrite with reply_id in Hre.
  - apply readyg_leafy; [exact (liquidate_reply_leafy _ _ _ _ _ Hre)|].
    unfold marked. rewrite He. exact (proj1 (liquidate_reply_marks _ _ _ _ _ _ Hre Htmp)).
  - apply readyg_leafy; [exact (partial_liquidation_reply_leafy _ _ _ _ _ Hre)|].
    unfold marked. rewrite He. exact (proj1 (partial_liquidation_reply_marks _ _ _ _ _ _ Hre Htmp)).
Qed.

Lemma liquidate_readyl w s v t lim w1 subs :
  e_liquidate w s v t lim = Ok (w1, subs) -> readyg (marked v) (pendl v) w1 subs.
Proof.
  unfold e_liquidate, internal_close_position. intros H. arm H.
  1: match goal with Hp : partial_liquidation _ _ _ _ = Ok _ |- _ => unfold partial_liquidation in Hp; arm Hp end.
  all: cbn [readyg swap_output_msg sm_reply wants_ok sm_msg sm_id].
  all: split; [reflexivity|split; [reflexivity|]].
  all: eexists; cbn [w_eng set_eng e_tmp eng_set_tmp eng_set_liq]; split; [reflexivity|]; cbn [ts_vamm]; split; [reflexivity|].
  all: split; [first [left; reflexivity | right; reflexivity]|]; do 3 eexists; reflexivity.
Qed.

Definition stamped (v0 t0 : addr) (w : world) : Prop :=
  exists p, find_position (w_eng w) v0 t0 = Some p /\ p_block p = height (w_env w).

Lemma stamped_core v0 t0 : core_closed (stamped v0 t0).
Proof. intros w w1 (E1 & _ & E3) H. unfold stamped in *. rewrite E1, E3. exact H. Qed.
