(* The engine's in-flight records (swap, sent funds, liquidator), the swaps that are replied to and the messages that
   are not.  That every transaction leaves the records empty (C08) is proved in PendingFacts. *)
From MP.Model Require Import Prelude U128 SInt Feed Vamm VammOps Token World Engine Runtime.
From MP.Proofs Require Import Tactics RuntimeFacts HandlerFacts.

Definition clean (e : engine) : Prop := e_tmp e = None /\ e_sent e = None /\ e_liq e = None.

Definition is_swap (m : msg) : bool :=
  match m with MSwapInput _ _ _ _ _ | MSwapOutput _ _ _ _ | MSettleFunding _ => true | _ => false end.

Definition noreply (s : submsg) : Prop := wants_ok (sm_reply s) = false /\ is_swap (sm_msg s) = false.

Lemma noreply_transfer r a : noreply (execute_transfer r a). Proof. split; reflexivity. Qed.
Lemma noreply_ifw w a : noreply (execute_insurance_fund_withdrawal w a). Proof. split; reflexivity. Qed.
Lemma noreply_to_if w a : noreply (execute_transfer_to_insurance_fund w a). Proof. split; reflexivity. Qed.

Lemma silent_noreply s : silent s -> noreply s.
Proof. intros [Hr Hm]. split; [exact Hr|destruct (sm_msg s); try reflexivity; destruct Hm]. Qed.

Lemma exec_simple_swap_only w s m w' ev : exec_simple w s m = Ok (w', ev) -> w_eng w' = w_eng w.
Proof. apply exec_simple_eng. Qed.

(* a swap that runs is executed by the contract itself, in one slot *)
Lemma runs_swap f w n c m w1 n1 ev : runs f w n c m w1 n1 ev -> is_swap m = true ->
  exec_simple w c m = Ok (w1, ev) /\ n1 = n + 1.
Proof. destruct 1; [auto|discriminate]. Qed.

Lemma exec_swap_vc w c m w1 ev : is_swap m = true -> exec_simple w c m = Ok (w1, ev) ->
  exists v vm vm', zfind v (w_vamms w) = Some vm /\ w1 = set_vamm w v vm' /\ vc vm' = vc vm.
Proof. intros Hs H. apply exec_simple_cases in H. destruct m; try discriminate Hs; eauto. Qed.

(* a list that is one replying swap: the swap runs, the reply runs on the result, the reply's messages are dispatched *)
Lemma dispatched_single f w n c s w' n' :
  dispatched f w n c [s] w' n' -> sm_reply s = RAlways -> is_swap (sm_msg s) = true ->
  exists w1 ev w2 subs, exec_simple w c (sm_msg s) = Ok (w1, ev) /\
    contract_reply w1 c (sm_id s) (Ok ev) = Ok (w2, subs) /\ dispatched f w2 (n + 1) c subs w' n'.
Proof.
  intros H Hra Hsw. inversion H as [|? ? ? ? ? ? ? ? ? ? _ _ Hw|? ? ? ? ? ? ? ? ? ? ? ? ? ? _ Hr _ Hc Hd Hn]; subst;
    [rewrite Hra in Hw; discriminate|].
  inversion Hn; subst. destruct (runs_swap _ _ _ _ _ _ _ _ Hr Hsw) as [Hx ->]. eauto 8.
Qed.
