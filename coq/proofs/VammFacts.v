(* vAMM curve facts: what the price functions return, the product of the reserves never falls (C01), what a swap keeps. *)
From MP.Model Require Import Prelude U128 SInt Feed Vamm VammOps.
From MP.Proofs Require Import Tactics SIntFacts.

Definition kfloor (dec q b : Z) : Z := q * b / dec.

Lemma modulo_dec_spec a b dec r : 0 <= a -> 0 < b -> 0 <= dec ->
  modulo_dec a b dec = Ok r -> r = (a * dec) mod b.
Proof.
  unfold modulo_dec; intros Ha Hb Hd H.
  repeat inv_bind H. arith_ok. subst.
  rewrite Z.mod_eq by lia. reflexivity.
Qed.

Lemma div_round_up kd q nb :
  0 < q -> kd / q <= nb -> (kd mod q <> 0 -> kd / q < nb) -> kd <= q * nb.
Proof.
  intros Hq H1 H2. pose proof (Z.div_mod kd q ltac:(lia)). pose proof (Z.mod_pos_bound kd q Hq).
  destruct (Z.eq_dec (kd mod q) 0); nia.
Qed.

(* The base amount is rounded against the trader: with kd = kfloor dec q b * dec and q' the
   new quote reserve, the new base reserve is at least kd / q' rounded up, so the product
   does not drop below kd.  The new quote reserve cannot be zero. *)
Lemma input_price_spec dec d quote q b base :
  0 < dec -> 0 <= q -> 0 <= b -> 0 < quote ->
  input_price dec d quote q b = Ok base ->
  match d with
  | AddToAmm => 0 <= base <= b /\ kfloor dec q b <= kfloor dec (q + quote) (b - base)
  | RemoveFromAmm => 0 <= base /\ quote < q /\ kfloor dec q b <= kfloor dec (q - quote) (b + base)
  end.
Proof.
  intros Hd Hq Hb Hqt H. unfold input_price in H.
  destruct (Z.eqb_spec quote 0); [lia|].
  repeat inv_bind H.
  rename x1 into q'. arith_ok. subst.
  assert (Hq' : 0 < q' /\ q' = match d with AddToAmm => q + quote | RemoveFromAmm => q - quote end)
    by (destruct d; arith_ok; lia).
  apply modulo_dec_spec in Hx4; [|apply Z.div_pos; nia|lia|lia]. subst x4.
  unfold kfloor. set (kd := q * b / dec * dec) in *.
  assert (Hk : 0 <= kd <= q * b).
  { split; [apply Z.mul_nonneg_nonneg; [apply Z.div_pos|]; nia | unfold kd; rewrite (Z.mul_comm _ dec); apply Z.mul_div_le; lia]. }
  assert (Hbn : 0 <= kd / q') by (apply Z.div_pos; lia).
  assert (Hadd : d = AddToAmm -> kd / q' <= b) by (intros ->; apply Z.div_le_upper_bound; nia).
  destruct (Z.ltb_spec b (kd / q')), (Z.eqb_spec (kd mod q') 0), Hq' as [Hq' E], d; cbn [negb] in H;
    arith_ok; inv_ok; subst; try specialize (Hadd eq_refl); (repeat split; try lia);
    apply Z.div_le_lower_bound; try lia; rewrite (Z.mul_comm dec); apply (div_round_up kd); lia.
Qed.

Lemma input_price_zero dec d q b : input_price dec d 0 q b = Ok 0.
Proof. reflexivity. Qed.

Lemma cmul_comm a b : cmul a b = cmul b a.
Proof. unfold cmul. rewrite Z.mul_comm. reflexivity. Qed.
(* output_price is input_price on the mirrored pool *)
Lemma output_price_input dec d base q b : output_price dec d base q b = input_price dec d base b q.
Proof. unfold output_price, input_price. rewrite (cmul_comm q b). reflexivity. Qed.
Lemma kfloor_comm dec q b : kfloor dec q b = kfloor dec b q.
Proof. unfold kfloor. rewrite Z.mul_comm. reflexivity. Qed.

Lemma input_price_nonneg dec d quote q b r : input_price dec d quote q b = Ok r -> 0 <= r.
Proof.
  unfold input_price. intros H. destruct (quote =? 0); [inv_ok; lia|].
  minv H; inv_ok; arith_ok; subst; zb;
  repeat match goal with Hc : context [if ?c then _ else _] |- _ => destruct c eqn:? | |- context [if ?c then _ else _] => destruct c eqn:? end; zb; lia.
Qed.
Lemma output_price_nonneg dec d base q b r : output_price dec d base q b = Ok r -> 0 <= r.
Proof. rewrite output_price_input. apply input_price_nonneg. Qed.

(* any amount, zero included, in the shape update_reserve consumes *)
Lemma input_price_k dec d quote q b base :
  0 < dec -> 0 <= q -> 0 <= b -> 0 <= quote ->
  input_price dec d quote q b = Ok base ->
  0 <= base /\
  kfloor dec q b <= match d with
                    | AddToAmm => kfloor dec (q + quote) (b - base)
                    | RemoveFromAmm => kfloor dec (q - quote) (b + base)
                    end.
Proof.
  intros Hd Hq Hb Hqt H. destruct (Z.eq_dec quote 0) as [->|].
  - rewrite input_price_zero in H. inv_ok. rewrite Z.add_0_r, !Z.sub_0_r, Z.add_0_r. destruct d; lia.
  - apply input_price_spec in H; try lia. destruct d; tauto.
Qed.

Lemma output_price_k dec d base q b quote :
  0 < dec -> 0 <= q -> 0 <= b -> 0 <= base ->
  output_price dec d base q b = Ok quote ->
  0 <= quote /\
  kfloor dec q b <= match flip d with
                    | AddToAmm => kfloor dec (q + quote) (b - base)
                    | RemoveFromAmm => kfloor dec (q - quote) (b + base)
                    end.
Proof.
  intros Hd Hq Hb Hbs H. rewrite output_price_input in H. apply input_price_k in H; auto.
  rewrite (kfloor_comm dec q b).
  destruct d; cbn [flip]; [rewrite (kfloor_comm dec (q - quote)) | rewrite (kfloor_comm dec (q + quote))]; exact H.
Qed.

Definition wfv (v : vamm) : Prop :=
  0 < v_dec (vc v) /\ 0 <= v_q (vs v) /\ 0 <= v_b (vs v) /\ wf0 (v_total (vs v)).

(* C01's two quantities: the floored product of the reserves, and base reserve + net position, which swaps keep *)
Definition kof (v : vamm) : Z := kfloor (v_dec (vc v)) (v_q (vs v)) (v_b (vs v)).
Definition base_plus_net (v : vamm) : Z := v_b (vs v) + toZ (v_total (vs v)).

Lemma add_reserve_snapshot_ok sn e q b sn' : add_reserve_snapshot sn e q b = Ok sn' -> True.
Proof. trivial. Qed.

Lemma update_reserve_total v e d qa ba cgo v' :
  update_reserve v e d qa ba cgo = Ok v' -> wf0 (v_total (vs v)) -> 0 <= ba ->
  wf0 (v_total (vs v')) /\
  toZ (v_total (vs v')) = toZ (v_total (vs v)) + match d with AddToAmm => ba | RemoveFromAmm => - ba end.
Proof.
  unfold update_reserve. intros H Hw Hb. inv_bind H. inv_bind H. inv_bind H. inv_ok. cbn [vs].
  destruct d; inv_bind Hx0; inv_bind Hx0; inv_bind Hx0; inv_ok; cbn [set_vs_reserves v_total].
  - match goal with Hs : sadd _ _ = Ok _ |- _ => apply sadd_toZ0 in Hs; [|assumption|apply spos_wf0; lia] end.
    rewrite toZ_spos in *. tauto.
  - match goal with Hs : ssub _ _ = Ok _ |- _ => apply ssub_toZ0 in Hs; [|assumption|apply spos_wf0; lia] end.
    rewrite toZ_spos in *. intuition lia.
Qed.

Lemma swap_input_total v e s d quote lim cgo v' qa ba :
  swap_input v e s d quote lim cgo = Ok (v', (qa, ba)) -> wf0 (v_total (vs v)) ->
  0 <= ba /\ wf0 (v_total (vs v')) /\
  toZ (v_total (vs v')) = toZ (v_total (vs v)) + match d with AddToAmm => ba | RemoveFromAmm => - ba end.
Proof.
  unfold swap_input. intros H Hw. minv H. inv_ok.
  match goal with Hp : input_price _ _ _ _ _ = Ok _ |- _ => apply input_price_nonneg in Hp end.
  match goal with Hu : update_reserve _ _ _ _ _ _ = Ok _ |- _ => apply update_reserve_total in Hu; auto end.
  all: tauto.
Qed.

Lemma swap_output_total v e s d base lim v' qa ba :
  swap_output v e s d base lim = Ok (v', (qa, ba)) -> wf0 (v_total (vs v)) -> 0 <= base ->
  ba = base /\ wf0 (v_total (vs v')) /\
  toZ (v_total (vs v')) = toZ (v_total (vs v)) + match d with AddToAmm => - base | RemoveFromAmm => base end.
Proof.
  unfold swap_output. intros H Hw Hb. minv H. inv_ok.
  match goal with Hu : update_reserve _ _ _ _ _ _ = Ok _ |- _ => apply update_reserve_total in Hu; auto end.
  all: destruct d; cbn [flip] in *; intuition lia.
Qed.

Lemma update_reserve_spec v e d qa ba cgo v' :
  wf0 (v_total (vs v)) -> 0 <= ba ->
  update_reserve v e d qa ba cgo = Ok v' ->
  vc v' = vc v /\ v_owner v' = v_owner v /\ v_open (vs v') = v_open (vs v) /\
  v_frate (vs v') = v_frate (vs v) /\ v_next_funding (vs v') = v_next_funding (vs v) /\
  wf0 (v_total (vs v')) /\
  match d with
  | AddToAmm => v_q (vs v') = v_q (vs v) + qa /\ v_b (vs v') = v_b (vs v) - ba /\ ba <= v_b (vs v) /\
                toZ (v_total (vs v')) = toZ (v_total (vs v)) + ba
  | RemoveFromAmm => v_q (vs v') = v_q (vs v) - qa /\ v_b (vs v') = v_b (vs v) + ba /\ qa <= v_q (vs v) /\
                toZ (v_total (vs v')) = toZ (v_total (vs v)) - ba
  end.
Proof.
  intros Ht Hba H. destruct (update_reserve_total _ _ _ _ _ _ _ H Ht Hba) as [Wt Zt].
  unfold update_reserve in H. repeat inv_bind H. inv_ok. cbn [vc vs v_owner] in *.
  destruct d; repeat inv_bind Hx0; inv_ok; arith_ok; subst;
    cbn [set_vs_reserves v_open v_q v_b v_total v_frate v_next_funding] in *; intuition lia.
Qed.

Lemma kfloor_same dec q b : kfloor dec (q + 0) (b - 0) = kfloor dec q b.
Proof. rewrite Z.add_0_r, Z.sub_0_r. reflexivity. Qed.

Lemma update_reserve_c01 v e d qa ba cgo v' :
  wfv v -> 0 <= qa -> 0 <= ba ->
  kof v <= match d with
           | AddToAmm => kfloor (v_dec (vc v)) (v_q (vs v) + qa) (v_b (vs v) - ba)
           | RemoveFromAmm => kfloor (v_dec (vc v)) (v_q (vs v) - qa) (v_b (vs v) + ba)
           end ->
  update_reserve v e d qa ba cgo = Ok v' ->
  wfv v' /\ kof v <= kof v' /\ base_plus_net v' = base_plus_net v /\ vc v' = vc v /\
  match d with
  | AddToAmm => v_q (vs v') = v_q (vs v) + qa /\ v_b (vs v') = v_b (vs v) - ba
  | RemoveFromAmm => v_q (vs v') = v_q (vs v) - qa /\ v_b (vs v') = v_b (vs v) + ba
  end.
Proof.
  intros (Hd & Hq & Hb & Ht) Hqa Hba K H. apply update_reserve_spec in H; auto.
  destruct H as (Hc & _ & _ & _ & _ & Hwt & Hdir).
  unfold wfv, kof, base_plus_net in *. rewrite Hc.
  destruct d; destruct Hdir as (E1 & E2 & E3 & E4); rewrite E1, E2, E4; intuition lia.
Qed.

Lemma swap_input_c01 v e s d quote lim cgo v' qa ba :
  wfv v -> 0 <= quote ->
  swap_input v e s d quote lim cgo = Ok (v', (qa, ba)) ->
  wfv v' /\ kof v <= kof v' /\ base_plus_net v' = base_plus_net v /\ vc v' = vc v /\
  qa = quote /\ 0 <= ba /\
  match d with
  | AddToAmm => v_q (vs v') = v_q (vs v) + quote /\ v_b (vs v') = v_b (vs v) - ba
  | RemoveFromAmm => v_q (vs v') = v_q (vs v) - quote /\ v_b (vs v') = v_b (vs v) + ba
  end.
Proof.
  intros Hw Hq H. pose proof Hw as (Hd & Hq0 & Hb0 & _).
  unfold swap_input in H. minv H. inv_ok.
  apply input_price_k in Hx; auto. destruct Hx as [Hba K].
  apply update_reserve_c01 in Hx1; auto. tauto.
Qed.

Lemma swap_output_c01 v e s d base lim v' qa ba :
  wfv v -> 0 <= base ->
  swap_output v e s d base lim = Ok (v', (qa, ba)) ->
  wfv v' /\ kof v <= kof v' /\ base_plus_net v' = base_plus_net v /\ vc v' = vc v /\
  ba = base /\ 0 <= qa /\
  match d with
  | AddToAmm => v_q (vs v') = v_q (vs v) - qa /\ v_b (vs v') = v_b (vs v) + base
  | RemoveFromAmm => v_q (vs v') = v_q (vs v) + qa /\ v_b (vs v') = v_b (vs v) - base
  end.
Proof.
  intros Hw Hq H. pose proof Hw as (Hd & Hq0 & Hb0 & _).
  unfold swap_output in H. minv H. inv_ok.
  apply output_price_k in Hx; auto. destruct Hx as [Hqa K].
  apply update_reserve_c01 in Hx1; auto. destruct d; cbn [flip] in Hx1; tauto.
Qed.

Definition vop_wf (o : vop) : Prop :=
  match o with
  | VSwapInput _ _ _ q l _ => 0 <= q
  | VSwapOutput _ _ _ b l => 0 <= b
  | _ => True
  end.

Definition c01_rel (v v' : vamm) : Prop :=
  wfv v' /\ v_dec (vc v') = v_dec (vc v) /\ kof v <= kof v' /\ base_plus_net v' = base_plus_net v.

Lemma c01_rel_same v v' :
  wfv v -> v_dec (vc v') = v_dec (vc v) -> v_q (vs v') = v_q (vs v) -> v_b (vs v') = v_b (vs v) ->
  v_total (vs v') = v_total (vs v) -> c01_rel v v'.
Proof. unfold c01_rel, wfv, kof, base_plus_net. intros W -> -> -> ->. intuition lia. Qed.

Lemma c01_rel_refl v : wfv v -> c01_rel v v.
Proof. intros W. apply c01_rel_same; auto. Qed.

Lemma c01_rel_trans a b c : c01_rel a b -> c01_rel b c -> c01_rel a c.
Proof.
  unfold c01_rel, kof. intros (_ & D1 & K1 & B1) (W2 & D2 & K2 & B2).
  rewrite D2 in *. rewrite D1 in *. intuition lia.
Qed.

Lemma update_reserve_vc v e d qa ba cgo v' : update_reserve v e d qa ba cgo = Ok v' -> vc v' = vc v.
Proof. unfold update_reserve. intros H. arm H. reflexivity. Qed.
Lemma swap_input_vc v e s d q l c r : swap_input v e s d q l c = Ok r -> vc (fst r) = vc v.
Proof. unfold swap_input. intros H. arm H. eauto using update_reserve_vc. Qed.
Lemma swap_output_vc v e s d b l r : swap_output v e s d b l = Ok r -> vc (fst r) = vc v.
Proof. unfold swap_output. intros H. arm H. eauto using update_reserve_vc. Qed.

Lemma settle_funding_frame v e s orc v' pf :
  settle_funding v e s orc = Ok (v', pf) ->
  vc v' = vc v /\ v_q (vs v') = v_q (vs v) /\ v_b (vs v') = v_b (vs v) /\ v_total (vs v') = v_total (vs v) /\
  snaps v' = snaps v /\ v_owner v' = v_owner v /\ v_open (vs v') = v_open (vs v).
Proof.
  unfold settle_funding. intros H. minv H. inv_ok. cbn. intuition.
Qed.

Lemma set_open_frame v e s o v' :
  set_open v e s o = Ok v' ->
  vc v' = vc v /\ v_q (vs v') = v_q (vs v) /\ v_b (vs v') = v_b (vs v) /\ v_total (vs v') = v_total (vs v) /\
  snaps v' = snaps v /\ v_owner v' = v_owner v /\ v_open (vs v') = o.
Proof.
  unfold set_open. intros H. minv H. inv_ok. cbn. intuition.
Qed.

Lemma update_config_frame v s u v' :
  vamm_update_config v s u = Ok v' ->
  vs v' = vs v /\ snaps v' = snaps v /\ v_owner v' = v_owner v /\ v_dec (vc v') = v_dec (vc v) /\
  is_admin (v_owner v) s = true.
Proof.
  unfold vamm_update_config. intros H. minv H. inv_ok. cbn. intuition.
Qed.

Lemma update_owner_frame v s n v' :
  vamm_update_owner v s n = Ok v' ->
  vs v' = vs v /\ snaps v' = snaps v /\ vc v' = vc v /\ is_admin (v_owner v) s = true.
Proof.
  unfold vamm_update_owner. intros H. minv H. inv_ok. cbn. intuition.
Qed.

Lemma vstep_c01 v o : wfv v -> vop_wf o -> c01_rel v (vstep v o).
Proof.
  intros Hw Ho. unfold vstep. destruct (vexec v o) as [v'|] eqn:E; [|apply c01_rel_refl; auto].
  destruct o; cbn [vexec vop_wf] in *.
  - inv_bind E. inv_ok. destruct x as (v1 & qa & ba). apply swap_input_c01 in Hx; auto.
    cbn [fst]. unfold c01_rel. destruct Hx as (W & K & B & C & _). rewrite C. auto.
  - inv_bind E. inv_ok. destruct x as (v1 & qa & ba). apply swap_output_c01 in Hx; auto.
    cbn [fst]. unfold c01_rel. destruct Hx as (W & K & B & C & _). rewrite C. auto.
  - inv_bind E. inv_ok. destruct x as (v1 & pf). apply settle_funding_frame in Hx. cbn [fst].
    destruct Hx as (C & Q & B & T & _). apply c01_rel_same; congruence.
  - apply set_open_frame in E. destruct E as (C & Q & B & T & _). apply c01_rel_same; congruence.
  - apply update_config_frame in E. destruct E as (S & _ & _ & D & _). apply c01_rel_same; congruence.
  - apply update_owner_frame in E. destruct E as (S & _ & C & _). apply c01_rel_same; congruence.
Qed.

Lemma vrun_c01 ops : forall v, wfv v -> Forall vop_wf ops -> c01_rel v (vrun v ops).
Proof.
  induction ops as [|o ops IH]; intros v Hw Hf; cbn [vrun fold_left].
  - apply c01_rel_refl; auto.
  - inversion Hf as [|? ? Ho Hf']; subst.
    pose proof (vstep_c01 v o Hw Ho) as H1.
    apply c01_rel_trans with (vstep v o); auto.
    apply IH; auto. apply H1.
Qed.

Lemma vrun_app v a b : vrun v (a ++ b) = vrun (vrun v a) b.
Proof. unfold vrun. apply fold_left_app. Qed.
