(* Inversion of monadic code that returned Ok: binds, guards, checked arithmetic. *)
From Coq Require Export ZArith List Bool Lia.
From MP.Model Require Import Prelude U128 SInt Feed Vamm Token World Engine.
Open Scope Z_scope.

(* boolean comparisons among the hypotheses become propositions *)
Ltac zb :=
  repeat match goal with
  | H : (_ <? _) = true |- _ => apply Z.ltb_lt in H
  | H : (_ <? _) = false |- _ => apply Z.ltb_ge in H
  | H : (_ <=? _) = true |- _ => apply Z.leb_le in H
  | H : (_ <=? _) = false |- _ => apply Z.leb_gt in H
  | H : (_ =? _) = true |- _ => apply Z.eqb_eq in H
  | H : (_ =? _) = false |- _ => apply Z.eqb_neq in H
  | H : (_ && _) = true |- _ => apply andb_true_iff in H; destruct H
  | H : negb _ = true |- _ => apply negb_true_iff in H
  | H : negb _ = false |- _ => apply negb_false_iff in H
  end.

(* case split on the condition of the first `if` in the goal, or in H *)
Ltac destr_if :=
  match goal with
  | |- context [if ?b then _ else _] => destruct b eqn:?
  end.
Ltac destr_if_in H :=
  match type of H with
  | context [if ?b then _ else _] => destruct b eqn:?
  end.

Lemma bind_ok {A B} (r : res A) (f : A -> res B) (y : B) :
  bind r f = Ok y -> exists x, r = Ok x /\ f x = Ok y.
Proof. destruct r; simpl; intros H; [eauto | discriminate]. Qed.

(* H : bind r f = Ok y becomes Hx : r = Ok x and H : f x = Ok y *)
Ltac inv_bind H :=
  let x := fresh "x" in let Hx := fresh "Hx" in
  apply bind_ok in H; destruct H as (x & Hx & H).

(* equations between results: Ok x = Ok y is injected and substituted, Ok = Err closes the goal *)
Ltac inv_ok :=
  repeat match goal with
  | H : Ok _ = Ok _ |- _ => injection H as H; subst
  | H : Err _ = Ok _ |- _ => discriminate H
  | H : Ok _ = Err _ |- _ => discriminate H
  end.

Lemma cadd_ok a b r : cadd a b = Ok r -> r = a + b /\ a + b < MAXU.
Proof. unfold cadd; destruct (a + b <? MAXU) eqn:E; intros H; inv_ok; zb; auto. Qed.
Lemma csub_ok a b r : csub a b = Ok r -> r = a - b /\ b <= a.
Proof. unfold csub; destruct (b <=? a) eqn:E; intros H; inv_ok; zb; auto. Qed.
Lemma cmul_ok a b r : cmul a b = Ok r -> r = a * b /\ a * b < MAXU.
Proof. unfold cmul; destruct (a * b <? MAXU) eqn:E; intros H; inv_ok; zb; auto. Qed.
Lemma cdiv_ok a b r : cdiv a b = Ok r -> r = a / b /\ b <> 0.
Proof. unfold cdiv; destruct (b =? 0) eqn:E; intros H; inv_ok; zb; auto. Qed.

Lemma sub64_ok a b r : sub64 a b = Ok r -> r = a - b /\ b <= a.
Proof. unfold sub64. intros H. destr_if_in H; [|discriminate]. inv_ok. zb. auto. Qed.
Lemma add64_ok a b r : add64 a b = Ok r -> r = a + b.
Proof. unfold add64. intros H. destr_if_in H; [|discriminate]. inv_ok. reflexivity. Qed.

(* a checked operation that succeeded becomes its value and its side condition *)
Ltac arith_ok :=
  repeat match goal with
  | H : cadd _ _ = Ok _ |- _ => apply cadd_ok in H; destruct H
  | H : csub _ _ = Ok _ |- _ => apply csub_ok in H; destruct H
  | H : cmul _ _ = Ok _ |- _ => apply cmul_ok in H; destruct H
  | H : cdiv _ _ = Ok _ |- _ => apply cdiv_ok in H; destruct H
  end.

Lemma MAXU_pos : 0 < MAXU. Proof. reflexivity. Qed.
Global Opaque MAXU.

(* H : body = Ok _ is split at the head of body, repeatedly: binds, conditionals, pair lets, matches *)
Ltac minv1 H :=
  match type of H with
  | Err _ = Ok _ => discriminate H
  | bind ?r _ = Ok _ =>
      let x := fresh "x" in let Hx := fresh "Hx" in
      destruct r as [x|] eqn:Hx; [cbn [bind] in H | discriminate H]
  | (if ?b then _ else _) = Ok _ =>
      let Hb := fresh "Hb" in destruct b eqn:Hb; [|try discriminate H]
  | (let '(_, _) := ?p in _) = Ok _ => destruct p
  | match ?x with _ => _ end = Ok _ => destruct x eqn:?; try discriminate H
  end.
Ltac minv H := cbv beta zeta iota in H; repeat (minv1 H; cbv beta zeta iota in H).

(* the steps of `minv` on every hypothesis, so also on the equations `minv H` left behind *)
Ltac minv_all :=
  repeat match goal with
  | H : ?a = ?a |- _ => clear H
  | H : Err _ = Ok _ |- _ => discriminate H
  | H : Ok _ = Err _ |- _ => discriminate H
  | H : bind _ _ = Ok _ |- _ => minv1 H; cbv beta zeta in H
  | H : (if _ then _ else _) = Ok _ |- _ => minv1 H; cbv beta zeta in H
  | H : (let '(_, _) := _ in _) = Ok _ |- _ => minv1 H; cbv beta zeta in H
  | H : Ok ?a = Ok ?b |- _ => first [ is_var b; injection H as H; subst b
                                   | is_var a; injection H as H; subst a
                                   | injection H as H ]
  end.

(* variables of pair type are destructed *)
Ltac pairs := repeat match goal with x : (_ * _)%type |- _ => destruct x end; cbn [fst snd] in *.

(* `minv H`, results substituted, pairs destructed; a conditional bound by a `do` stays behind as one equation
   `(if c then a else b) = Ok x` *)
Ltac arm H := unfold need_tmp, need_sent, need_liq in H; minv H; inv_ok; subst; pairs.
(* splits the equation `arm` left behind that defines the variable x *)
Ltac defn x :=
  match goal with H : (if _ then _ else _) = Ok ?r |- _ => match r with context [x] => minv H; inv_ok; subst; pairs end end.
