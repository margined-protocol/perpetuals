(* The C20 invariant (configuration bounds, decimals of registered vAMMs) and its preservation by every transaction. *)
From MP.Model Require Import Prelude U128 SInt Feed Vamm VammOps Token World Engine Runtime.
From MP.Proofs Require Import Tactics MapFacts ConfigFacts RuntimeFacts HandlerFacts VammFacts MirrorFacts MirrorReach RegistryFacts.

Definition vamms_ok (w : world) : Prop := forall v vm, zfind v (w_vamms w) = Some vm -> vcfg_ok (vc vm).
Definition reg_dec (w : world) : Prop :=
  forall v, In v (if_vamms (w_if w)) -> exists vm, zfind v (w_vamms w) = Some vm /\ v_dec (vc vm) = e_dec (ec (w_eng w)).
Definition c20_inv (w : world) : Prop := ecfg_ok (ec (w_eng w)) /\ vamms_ok w /\ reg_dec w.

Lemma c20_inv_same w w' : cfg_same w w' -> c20_inv w -> c20_inv w'.
Proof.
  intros (E1 & E2 & E3 & E4) (H1 & H2 & H3). split; [rewrite E1; exact H1|]. split.
  - intros v vm' H. destruct (E3 _ _ H) as (vm & Hz & Ec). rewrite Ec. exact (H2 _ _ Hz).
  - intros v Hin. rewrite E2 in Hin. destruct (H3 v Hin) as (vm & Hz & Hd). destruct (E4 _ _ Hz) as (vm' & Hz' & Ec).
    exists vm'. split; [exact Hz'|]. rewrite Ec, E1. exact Hd.
Qed.

(* operations as they can be sent: configuration values are unsigned *)
Definition op_unsigned (o : op) : Prop :=
  match o with
  | OEngine _ (EUpdateConfig _ _ _ a b c d) _ => opt_nonneg a /\ opt_nonneg b /\ opt_nonneg c /\ opt_nonneg d
  | OVamm _ _ (WUpdateConfig u) => opt_nonneg (u_toll u) /\ opt_nonneg (u_spread u) /\ opt_nonneg (u_fluct u)
  | _ => True
  end.

Lemma engine_execute_c20 w s m funds w1 subs :
  engine_execute w s m funds = Ok (w1, subs) ->
  match m with EUpdateConfig _ _ _ a b c d => opt_nonneg a /\ opt_nonneg b /\ opt_nonneg c /\ opt_nonneg d | _ => True end ->
  c20_inv w -> c20_inv w1.
Proof.
  intros H Hok Hc. destruct (engine_execute_eng _ _ _ _ _ _ H) as (e' & E & He).
  destruct m; try (subst w1; apply (c20_inv_same w); [apply cfg_same_eq_vamms; [exact He|reflexivity|reflexivity]|exact Hc]).
  cbn [engine_execute] in H. destruct Hok as (Ha & Hb & Hcc & Hd). destruct Hc as (H1 & H2 & H3).
  pose proof (e_update_config_cfg _ _ _ _ _ _ _ _ _ _ _ Ha Hb Hcc Hd H H1) as (Hk & Hdec & _ & Hv & Hi).
  split; [exact Hk|]. split; [unfold vamms_ok; rewrite Hv; exact H2|].
  intros v Hin. rewrite Hi in Hin. destruct (H3 v Hin) as (vm & Hz & Hd'). exists vm.
  split; [rewrite Hv; exact Hz|rewrite Hdec; exact Hd'].
Qed.

Lemma vamms_ok_set w v vm' : vcfg_ok (vc vm') -> vamms_ok w -> vamms_ok (set_vamm w v vm').
Proof.
  intros Hc Hv u um H. cbn [w_vamms set_vamm] in H. destruct (Z.eq_dec u v) as [->|Hne].
  - rewrite zfind_zset_same in H. injection H as <-. exact Hc.
  - rewrite zfind_zset_other in H by exact Hne. exact (Hv _ _ H).
Qed.

Lemma exec_op_c20 f w o w' : exec_op f w o = Ok w' -> op_unsigned o -> c20_inv w -> c20_inv w'.
Proof.
  intros H Hok Hc. pose proof (exec_op_cases _ _ _ _ H) as Hk. destruct o.
  - subst. exact Hc.
  - destruct Hk as (t & w1 & subs & n & He & Hd).
    apply (c20_inv_same w1); [exact (dispatched_cfg_same _ _ _ _ _ _ _ Hd)|].
    eapply engine_execute_c20; [exact He| |exact Hc]. destruct m; try exact Logic.I. exact Hok.
  - destruct (exec_vamm_op _ _ _ _ _ _ H) as (vm & vm' & Hz & -> & Hvo).
    destruct o; try (apply (c20_inv_same w); [exact (cfg_same_set_vamm _ _ _ _ Hz (proj1 Hvo))|exact Hc]).
    (* vAMM UpdateConfig: validated; decimals immutable *)
    destruct Hok as (Ht & Hs & Hfl). destruct Hc as (H1 & H2 & H3).
    destruct (vamm_update_config_cfg _ _ _ _ Ht Hs Hfl Hvo (H2 _ _ Hz)) as (Hk' & Hdec & _ & _).
    split; [exact H1|]. split; [eapply vamms_ok_set; eauto|].
    intros a0 Hin. cbn [w_if set_vamm] in Hin. destruct (H3 a0 Hin) as (um & Hz' & Hd). cbn [w_vamms set_vamm w_eng].
    destruct (Z.eq_dec a0 v) as [->|Hne].
    + rewrite zfind_zset_same. exists vm'. split; [reflexivity|]. rewrite Hz in Hz'. injection Hz' as <-. rewrite Hdec. exact Hd.
    + rewrite zfind_zset_other by exact Hne. eauto.
  - (* the registry changes only here *)
    clear Hk. cbn [exec_op] in H. revert H. generalize FUEL. intros fuel H. arm H.
    match goal with Hd : dispatch _ _ _ _ _ _ = Ok _ |- _ => apply dispatch_dispatched, dispatched_cfg_same in Hd; apply (c20_inv_same _ _ Hd) end.
    destruct Hc as (H1 & H2 & H3).
    destruct m; [unfold if_update_owner in Hx| |unfold if_remove_vamm in Hx|unfold if_withdraw in Hx|unfold if_shutdown in Hx];
      try (arm Hx; split; [exact H1|split; [exact H2|]]).
    + exact H3.
    + (* AddVamm: only with the engine's decimals *)
      destruct (if_add_vamm_decimals _ _ _ _ _ Hx) as (vm & Hg & Hd & Hl & _). unfold if_add_vamm in Hx. arm Hx.
      split; [exact H1|split; [exact H2|]]. intros u Hin. rewrite Hl in Hin. cbn [w_eng w_vamms set_if].
      apply in_app_or in Hin. destruct Hin as [Hin|[<-|[]]]; [exact (H3 u Hin)|]. eauto using get_vamm_find.
    + intros u Hin. cbn [w_if set_if if_vamms] in Hin. apply swap_remove_In in Hin. exact (H3 u Hin).
    + exact H3.
    + exact H3.
  - destruct Hk as (p & subs & n & _ & Hd). apply (c20_inv_same (set_fp w p)); [exact (dispatched_cfg_same _ _ _ _ _ _ _ Hd)|exact Hc].
  - destruct Hk as [fd ->]. exact Hc.
  - destruct Hk as [t ->]. exact Hc.
Qed.
