(* A goal G carried through the engine's message tree: while a replying swap is pending, P describes the world; once only
   leaf messages (transfers, insurance-fund draws) remain, G holds; both are insensitive to what leaves change.
   Two instances: the mirror invariant (C02) and the absence of in-flight records (C08). *)
From MP.Model Require Import Prelude U128 SInt Feed Vamm VammOps Token World Engine Runtime.
From MP.Proofs Require Import Tactics RuntimeFacts HandlerFacts ResidueFacts MirrorFacts.

(* `rest = []`: a replying swap is the last message the engine emits, so nothing is left to carry across its reply *)
Fixpoint readyg (G : world -> Prop) (P : world -> msg -> Z -> Prop) (w : world) (subs : list submsg) : Prop :=
  match subs with
  | [] => G w
  | s :: rest =>
      if wants_ok (sm_reply s) then rest = [] /\ sm_reply s = RAlways /\ P w (sm_msg s) (sm_id s)
      else is_leaf (sm_msg s) = true /\ readyg G P w rest
  end.

Definition core_closed (G : world -> Prop) : Prop := forall w w1, same_core w w1 -> G w -> G w1.
Definition core_closed_p (P : world -> msg -> Z -> Prop) : Prop := forall w w1 m id, same_core w w1 -> P w m id -> P w1 m id.

Lemma readyg_core G P w w1 subs : core_closed G -> core_closed_p P -> same_core w w1 -> readyg G P w subs -> readyg G P w1 subs.
Proof.
  intros HG HP Hc. induction subs as [|s rest IH]; cbn [readyg]; [apply HG; exact Hc|].
  destruct (wants_ok (sm_reply s)).
  - intros (E & R & Q). split; [exact E|split; [exact R|eapply HP; eauto]].
  - intros (L & R). split; auto.
Qed.

Lemma readyg_leafy_app G P w l1 l2 : Forall leafy l1 -> (readyg G P w (l1 ++ l2) <-> readyg G P w l2).
Proof.
  induction l1 as [|s l IH]; intros H; cbn [app readyg]; [tauto|].
  inversion H as [|? ? [Hs1 Hs2] Hl]; subst. rewrite Hs1. rewrite IH by assumption. tauto.
Qed.
Lemma readyg_leafy G P w l : Forall leafy l -> (readyg G P w l <-> G w).
Proof. intros H. rewrite <- (app_nil_r l). rewrite readyg_leafy_app by assumption. cbn. tauto. Qed.

Lemma dispatched_pending (G : world -> Prop) (P : world -> msg -> Z -> Prop) :
  core_closed G -> core_closed_p P ->
  (forall w m id, P w m id -> is_swap m = true) ->
  (forall w m id w1 ev w2 subs, P w m id -> exec_simple w A_ENGINE m = Ok (w1, ev) ->
     contract_reply w1 A_ENGINE id (Ok ev) = Ok (w2, subs) -> readyg G P w2 subs) ->
  forall f w n subs w' n', dispatched f w n A_ENGINE subs w' n' -> readyg G P w subs -> G w'.
Proof.
  intros HG HP Hswap Hpair. apply (dispatched_ready (readyg G P)).
  - intros f w n s rest w1 n1 ev HR Hw Hx. cbn [readyg] in HR. rewrite Hw in HR. destruct HR as [Hl HR].
    eapply readyg_core; eauto using runs_leaf_core.
  - intros f w n s rest w1 n1 ev w2 subs HR Hw Hx Hc. cbn [readyg] in HR. rewrite Hw in HR. destruct HR as (-> & _ & Hp).
    destruct (runs_swap _ _ _ _ _ _ _ _ Hx (Hswap _ _ _ Hp)) as [Hx' _]. eauto.
Qed.

Lemma dispatch_pending (G : world -> Prop) (P : world -> msg -> Z -> Prop) :
  core_closed G -> core_closed_p P ->
  (forall w m id, P w m id -> is_swap m = true) ->
  (forall w m id w1 ev w2 subs, P w m id -> exec_simple w A_ENGINE m = Ok (w1, ev) ->
     contract_reply w1 A_ENGINE id (Ok ev) = Ok (w2, subs) -> readyg G P w2 subs) ->
  forall fuel f w n subs w' n',
    dispatch fuel f w n A_ENGINE subs = Ok (w', n') -> readyg G P w subs -> G w'.
Proof. intros HG HP Hswap Hpair fuel f w n subs w' n' H. eapply dispatched_pending, dispatch_dispatched, H; assumption. Qed.

Lemma readym_readyg v0 w subs : readym v0 w subs <-> readyg (mirror v0) (pend v0) w subs.
Proof. induction subs as [|s rest IH]; cbn [readym readyg]; [tauto|]. destruct (wants_ok (sm_reply s)); [tauto|]. rewrite IH. tauto. Qed.

Lemma dispatched_mirror v0 f w n subs w' n' :
  dispatched f w n A_ENGINE subs w' n' -> readym v0 w subs -> mirror v0 w'.
Proof.
  intros H Hr. apply readym_readyg in Hr. revert H Hr. apply dispatched_pending.
  - intros w0 w1 Hc. apply mirror_core, Hc.
  - intros w0 w1 m id Hc. apply pend_core, Hc.
  - apply pend_is_swap.
  - intros. apply readym_readyg. eapply pair_mirror; eauto.
Qed.

(* C08: a pending swap finds empty the records its reply does not read *)
Definition state_for (id : Z) (e : engine) : Prop :=
  if (id =? INCREASE_ID) || (id =? DECREASE_ID) || (id =? REVERSE_ID) then e_liq e = None
  else if (id =? CLOSE_ID) || (id =? PARTIAL_CLOSE_ID) then e_sent e = None /\ e_liq e = None
  else if (id =? LIQUIDATION_ID) || (id =? PARTIAL_LIQUIDATION_ID) then e_sent e = None
  else clean e.

Definition cleanw (w : world) : Prop := clean (w_eng w).
Definition pendc (w : world) (m : msg) (id : Z) : Prop := is_swap m = true /\ state_for id (w_eng w).

(* `cleanw` of a world whose engine record is setters over one whose relevant fields are empty *)
Ltac clean_goal :=
  unfold cleanw, clean;
  cbn [w_eng set_eng e_tmp e_sent e_liq eng_set_tmp eng_set_state eng_set_sent eng_set_liq eng_set_vmap
       enter_restriction_mode store_position remove_position];
  repeat split; auto.

(* a list that is one replying swap *)
Ltac pendc_goal :=
  cbn [readyg internal_increase_position swap_input_msg swap_output_msg sm_reply wants_ok sm_msg sm_id]; unfold pendc, state_for;
  cbn [is_swap]; repeat split;
  unfold INCREASE_ID, DECREASE_ID, REVERSE_ID, CLOSE_ID, PARTIAL_CLOSE_ID, LIQUIDATION_ID, PARTIAL_LIQUIDATION_ID, PAY_FUNDING_ID;
  cbn [Z.eqb Pos.eqb orb]; clean_goal.

Lemma update_position_reply_readyc w i o id w' subs :
  update_position_reply w i o id = Ok (w', subs) -> e_liq (w_eng w) = None -> readyg cleanw pendc w' subs.
Proof.
  intros H Hl. apply readyg_leafy; [exact (update_position_reply_leafy _ _ _ _ _ _ H)|].
  unfold update_position_reply in H. arm H; clean_goal.
Qed.

Lemma pair_clean w m id w1 ev w2 subs :
  pendc w m id -> exec_simple w A_ENGINE m = Ok (w1, ev) -> contract_reply w1 A_ENGINE id (Ok ev) = Ok (w2, subs) ->
  readyg cleanw pendc w2 subs.
Proof.
  (* by cases on the reply id: `state_for` is what its arm must find empty to end clean; only the reversal may send a swap *)
  intros [_ Hs] Hx H. rewrite <- (exec_simple_eng _ _ _ _ _ Hx) in Hs. clear Hx. unfold state_for in Hs.
  unfold contract_reply, engine_reply in H. cbn [Z.eqb Pos.eqb] in H. destruct ev; try discriminate.
  - destruct (Z.eqb_spec id INCREASE_ID) as [->|]; [exact (update_position_reply_readyc _ _ _ _ _ _ H Hs)|].
    destruct (Z.eqb_spec id DECREASE_ID) as [->|]; [exact (update_position_reply_readyc _ _ _ _ _ _ H Hs)|].
    destruct (Z.eqb_spec id REVERSE_ID) as [->|].
    { cbn in Hs. destruct (e_tmp (w_eng w1)) as [tm|] eqn:Htmp;
        [|unfold reverse_position_reply, need_tmp in H; rewrite Htmp in H; discriminate H].
      destruct (reverse_position_reply_spec _ _ _ _ _ _ H Htmp)
        as (st1 & fp & mg & bad & lat & fmsgs & spread & toll & x & _ & _ & Hf & _ & [[-> ->]|(q & sent & _ & -> & ->)]).
      - apply readyg_leafy; [leafy_goal|clean_goal].
      - (* the fee messages, then the increase swap, whose reply finds no liquidator record *)
        apply readyg_leafy_app; [leafy_goal|]. pendc_goal. }
    destruct (Z.eqb_spec id CLOSE_ID) as [->|];
      [cbn in Hs; destruct Hs; apply readyg_leafy; [exact (close_position_reply_leafy _ _ _ _ _ H)|unfold close_position_reply in H; arm H; clean_goal]|].
    destruct (Z.eqb_spec id PARTIAL_CLOSE_ID) as [->|];
      [cbn in Hs; destruct Hs; apply readyg_leafy; [exact (partial_close_position_reply_leafy _ _ _ _ _ H)|unfold partial_close_position_reply in H; arm H; clean_goal]|].
    destruct (Z.eqb_spec id LIQUIDATION_ID) as [->|];
      [cbn in Hs; apply readyg_leafy; [exact (liquidate_reply_leafy _ _ _ _ _ H)|unfold liquidate_reply in H; arm H; clean_goal]|].
    destruct (Z.eqb_spec id PARTIAL_LIQUIDATION_ID) as [->|];
      [cbn in Hs; apply readyg_leafy; [exact (partial_liquidation_reply_leafy _ _ _ _ _ H)|unfold partial_liquidation_reply in H; arm H; clean_goal]|].
    discriminate.
  - destruct (Z.eqb_spec id PAY_FUNDING_ID) as [->|]; [|discriminate]. cbn in Hs. destruct Hs as (H1 & H2 & H3).
    apply readyg_leafy; [exact (pay_funding_reply_leafy _ _ _ _ _ H)|]. unfold pay_funding_reply in H. arm H.
    match goal with Ha : append_cumulative_premium_fraction _ _ _ = Ok _ |- _ => apply append_cpf_vmap in Ha as [vmp ->] end. clean_goal.
Qed.

Lemma engine_execute_readyc w s m funds w' subs :
  engine_execute w s m funds = Ok (w', subs) -> cleanw w -> readyg cleanw pendc w' subs.
Proof.
  unfold engine_execute. intros H (H1 & H2 & H3). destruct m.
  1-4, 11: unfold e_update_config, e_update_pauser, e_add_whitelist, e_remove_whitelist, e_set_pause in H; arm H; cbn [readyg]; clean_goal.
  - destruct (open_position_shape _ _ _ _ _ _ _ _ _ _ H) as (pn & upnl & _ & -> & ->); repeat destr_if; pendc_goal.
  - unfold e_close_position, internal_close_position in H. arm H; pendc_goal.
  - unfold e_liquidate, internal_close_position in H. arm H; try (pendc_goal; fail).
    all: match goal with Hp : partial_liquidation _ _ _ _ = Ok _ |- _ => unfold partial_liquidation in Hp; arm Hp end; pendc_goal.
  - unfold e_pay_funding in H. arm H; pendc_goal.
  - unfold e_deposit_margin in H. arm H; (apply readyg_leafy; [leafy_goal | clean_goal]).
  - unfold e_withdraw_margin in H. arm H; (apply readyg_leafy; [leafy_goal | clean_goal]).
Qed.

Lemma exec_op_clean f w o w' : exec_op f w o = Ok w' -> cleanw w -> cleanw w'.
Proof.
  intros H Hc. unfold cleanw. destruct o; try (rewrite (exec_other_eng _ _ _ _ H); [exact Hc|discriminate]).
  apply exec_engine_tok in H. destruct H as (t0 & w1 & subs & n & He & Hd).
  apply engine_execute_readyc in He; [|exact Hc]. revert Hd He. apply dispatched_pending.
  - intros w0 w2 (E & _). unfold cleanw. rewrite E. auto.
  - intros w0 w2 m0 id (E & _). unfold pendc. rewrite E. auto.
  - intros w0 m0 id [Hs _]. exact Hs.
  - apply pair_clean.
Qed.

Lemma step_clean f w o : clean (w_eng w) -> clean (w_eng (fst (step_f f w o))).
Proof. intros Hc. apply (step_f_inv cleanw); eauto using exec_op_clean. Qed.

Lemma run_clean ops : forall w, clean (w_eng w) -> clean (w_eng (run w ops)).
Proof.
  intros w. apply (run_inv cleanw (fun _ => True)); [|apply Forall_forall; auto].
  intros w0 o _. apply step_clean.
Qed.
