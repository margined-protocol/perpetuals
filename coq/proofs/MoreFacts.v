(* Further arm-level facts: withdraw/deposit (C05); funding on the engine side (C11); fee notional (C12); restriction
   marker (C16); opening swaps may not go over the band (C15); a list that is one swap the engine sent; what ClosePosition sends. *)
From MP.Model Require Import Prelude U128 SInt Feed Vamm VammOps Token World Engine Runtime.
From MP.Proofs Require Import Tactics MapFacts SIntFacts VammFacts SwapFacts EngineArith CloseFacts RuntimeFacts HandlerFacts
  FrameFacts ResidueFacts MirrorFacts.

Lemma require_additional_margin_ok mr b u : require_additional_margin mr b = Ok u -> sltb mr (spos b) = false.
Proof. unfold require_additional_margin. destruct (sltb mr (spos b)); [discriminate|reflexivity]. Qed.

Lemma withdraw_margin_spec w t v amount w' msgs :
  e_withdraw_margin w t v amount = Ok (w', msgs) ->
  let p := read_position (w_eng w) v t in
  pos_wf p -> cpf_wf (w_eng w) v -> 0 < e_dec (ec (w_eng w)) -> 0 <= amount ->
  exists p', find_position (w_eng w') v t = Some p' /\
    p_margin p' = p_margin p - amount - funding_owed w v p /\ 0 <= p_margin p' /\
    p_lupf p' = cumulative_premium_fraction (w_eng w) v /\
    p_size p' = p_size p /\ p_dir p' = p_dir p /\ p_notional p' = p_notional p /\
    transfers_to t msgs = amount /\
    amount <> 0 /\ e_pause (es (w_eng w)) = false /\
    exists fc fc', query_free_collateral w v t = Ok fc /\ schecked_sub fc (spos amount) = Ok fc' /\ s_is_negative fc' = false.
Proof.
  intros H p Hp Hc HD Ha. subst p. unfold e_withdraw_margin in H. arm H. zb.
  match goal with Hrm : calc_remain_margin _ _ _ _ = Ok _ |- _ =>
    apply calc_remain_margin_spec in Hrm; [|exact Hp|exact Hc|apply sneg_wf0; exact Ha|exact HD];
    destruct Hrm as (El & _ & Hneg & Hpos & Hm0 & _); rewrite sneg_toZ in Hneg, Hpos end.
  eexists. split; [cbn [w_eng set_eng]; rewrite find_set_state; apply find_store_same|].
  cbn [p_margin p_lupf p_size p_dir p_notional]. repeat split; auto; try lia.
  - erewrite transfers_to_withdraw by eassumption. rewrite Z.eqb_refl. reflexivity.
  - eauto.
Qed.

Lemma deposit_margin_spec w t v amount funds w' msgs :
  e_deposit_margin w t v amount funds = Ok (w', msgs) ->
  exists p, find_position (w_eng w) v t = Some p /\
    find_position (w_eng w') v t = Some (mkPos (p_dir p) (p_size p) (p_margin p + amount) (p_notional p) (p_lupf p) (p_block p)) /\
    amount <> 0 /\ e_pause (es (w_eng w)) = false /\
    (if t_native (w_tok w) then funds = amount /\ msgs = [] else msgs = [execute_transfer_from w t A_ENGINE amount]).
Proof.
  unfold e_deposit_margin. intros H. arm H. zb. arith_ok. subst.
  eexists. split; [reflexivity|]. split; [apply find_store_same|]. do 2 (split; [assumption|]).
  match goal with Hm : _ = Ok msgs |- _ => destruct (t_native (w_tok w)); arm Hm end; zb; auto.
Qed.

Definition funding_msgs (w : world) (fp : Z) : list submsg :=
  if fp <? 0 then [execute_insurance_fund_withdrawal w (- fp)]
  else if 0 <? fp then [execute_transfer (e_ifund (ec (w_eng w))) (Z.min (engine_balance w) fp)]
  else [].

Lemma funding_msgs_eq w fp : wf0 fp ->
  (if s_is_negative fp && negb (s_is_zero fp) then [execute_insurance_fund_withdrawal w (sval fp)]
   else if s_is_positive fp && negb (s_is_zero fp) then [execute_transfer_to_insurance_fund w (sval fp)]
   else []) = funding_msgs w (toZ fp).
Proof.
  intros W. unfold funding_msgs, s_is_positive. rewrite (s_is_negative_toZ0 fp W), s_is_zero_toZ, (wf0_toZ_abs fp W).
  destruct (Z.ltb_spec (toZ fp) 0), (Z.eqb_spec (toZ fp) 0), (Z.ltb_spec 0 (toZ fp)); try lia; cbn [andb negb]; try reflexivity.
  - unfold execute_insurance_fund_withdrawal. do 3 f_equal. lia.
  - unfold execute_transfer_to_insurance_fund, execute_transfer, engine_balance. do 3 f_equal.
    destruct (Z.ltb_spec (bal (w_tok w) A_ENGINE) (Z.abs (toZ fp))); lia.
Qed.

(* the new fraction is the last one plus the premium, put at the head of the list *)
Lemma append_cpf_spec e v pf e' : wf0 pf -> cpf_wf e v -> append_cumulative_premium_fraction e v pf = Ok e' ->
  exists latest, e' = eng_set_vmap e v (mkVmap (vm_lrb (read_vmap e v)) (latest :: vm_cpf (read_vmap e v))) /\
    toZ latest = toZ (cumulative_premium_fraction e v) + toZ pf /\ wf0 latest.
Proof.
  unfold append_cumulative_premium_fraction, cpf_wf, cumulative_premium_fraction. intros Hpf Hc H.
  destruct (vm_cpf (read_vmap e v)) as [|c rest]; arm H; eexists; (split; [reflexivity|]).
  - change (toZ szero) with 0. split; [lia|exact Hpf].
  - match goal with Hs : sadd _ _ = Ok _ |- _ => apply sadd_toZ0 in Hs; [|exact Hpf|exact Hc]; destruct Hs as (Zl & Wl & _) end.
    split; [lia|exact Wl].
Qed.

Lemma read_vmap_set e v m : read_vmap (eng_set_vmap e v m) v = m.
Proof. unfold read_vmap, eng_set_vmap; cbn [e_vmap]. rewrite zfind_zset_same. reflexivity. Qed.

Lemma pay_funding_reply_spec w pf vamm w' msgs :
  pay_funding_reply w pf vamm = Ok (w', msgs) ->
  wf0 pf -> cpf_wf (w_eng w) vamm -> 0 < e_dec (ec (w_eng w)) ->
  (forall v, get_vamm w vamm = Ok v -> wf0 (v_total (vs v))) ->
  toZ (cumulative_premium_fraction (w_eng w') vamm) = toZ (cumulative_premium_fraction (w_eng w) vamm) + toZ pf /\
  wf0 (cumulative_premium_fraction (w_eng w') vamm) /\
  (exists v, get_vamm w vamm = Ok v /\
     msgs = funding_msgs w (Z.quot (toZ (v_total (vs v)) * toZ pf) (e_dec (ec (w_eng w))))) /\
  w_tok w' = w_tok w /\ w_vamms w' = w_vamms w /\ w_if w' = w_if w /\ w_fp w' = w_fp w /\
  es (w_eng w') = es (w_eng w) /\ ec (w_eng w') = ec (w_eng w) /\ e_pos (w_eng w') = e_pos (w_eng w) /\
  vm_lrb (read_vmap (w_eng w') vamm) = vm_lrb (read_vmap (w_eng w) vamm).
Proof.
  intros H Hpf Hc HD Hv. unfold pay_funding_reply in H. arm H.
  match goal with Ha : append_cumulative_premium_fraction _ _ _ = Ok _, Hg : get_vamm _ _ = Ok ?v, Hm : smul _ _ = Ok _, Hd : sdiv _ _ = Ok ?fp |- _ =>
    apply append_cpf_spec in Ha; [|exact Hpf|exact Hc]; destruct Ha as (latest & -> & Zl & Wl);
    apply smul_toZ0 in Hm; [|exact (Hv _ Hg)|exact Hpf]; destruct Hm as (Zm & Wm & _);
    apply sdiv_toZ0 in Hd; [|exact Wm|apply spos_wf0; lia]; destruct Hd as (Zf & Wf & _); rewrite toZ_spos, Zm in Zf;
    rename v into vm; rename Hg into Hvm end.
  cbn [w_eng set_eng w_tok w_vamms w_if w_fp]. unfold cumulative_premium_fraction at 1 3. rewrite read_vmap_set. cbn [vm_cpf vm_lrb].
  split; [exact Zl|]. split; [exact Wl|]. split; [|repeat split].
  exists vm. split; [exact Hvm|]. rewrite <- Zf. exact (funding_msgs_eq w _ Wf).
Qed.

Lemma funding_owed_settled w v p : 0 < e_dec (ec (w_eng w)) ->
  p_lupf p = cumulative_premium_fraction (w_eng w) v -> funding_owed w v p = 0.
Proof. intros HD E. unfold funding_owed. rewrite E. rewrite Z.sub_diag. rewrite Z.mul_0_l. apply Z.quot_0_l. lia. Qed.

(* the share of the unrealized profit that a reduction of the position realizes *)
Lemma realized_pnl_wf0 upnl out size r : wf0 upnl -> wf0 out -> wf0 size ->
  (if negb (s_is_zero size) then do m <- schecked_mul upnl (sabs out); sdiv m (sabs size) else Ok szero) = Ok r -> wf0 r.
Proof.
  intros Hu Ho Hs H. destruct (negb (s_is_zero size)); [|inv_ok; unfold wf0; cbn; lia].
  rewrite schecked_mul_eq in H. apply bind_ok in H. destruct H as (m & Hm & Hd).
  apply smul_toZ0 in Hm; [|exact Hu|exact Ho]. apply sdiv_toZ0 in Hd; [apply Hd|apply Hm|exact Hs].
Qed.

(* everything a message list moves to address a (vault payouts and pulls from a wallet alike) *)
Fixpoint paid_to (a : addr) (msgs : list submsg) : Z :=
  match msgs with
  | [] => 0
  | s :: rest =>
      (match sm_msg s with
       | MTransfer to amt => if to =? a then amt else 0
       | MTransferFrom _ to amt => if to =? a then amt else 0
       | _ => 0 end) + paid_to a rest
  end.

Lemma paid_to_app a l1 l2 : paid_to a (l1 ++ l2) = paid_to a l1 + paid_to a l2.
Proof. induction l1 as [|s l IH]; cbn [paid_to app]; [lia|]. rewrite IH. lia. Qed.

Lemma paid_to_transfer a r x l : r <> a -> paid_to a (execute_transfer r x :: l) = paid_to a l.
Proof. intros H. cbn [paid_to sm_msg execute_transfer]. apply Z.eqb_neq in H. rewrite H. reflexivity. Qed.

Lemma paid_to_withdraw w st receiver amount pre st' msgs a :
  withdraw w st receiver amount pre = Ok (st', msgs) -> receiver <> a -> paid_to a msgs = 0.
Proof.
  intros H Hn. apply withdraw_spec in H. destruct H as (sf & [ (E & _) | (E & _) ]); subst msgs.
  - apply paid_to_transfer, Hn.
  - exact (paid_to_transfer a receiver amount [] Hn).
Qed.

Lemma paid_to_realize w st bd msgs st' pp a : realize_bad_debt w st bd = Ok (msgs, st', pp) -> paid_to a msgs = 0.
Proof. unfold realize_bad_debt. intros H. arm H; reflexivity. Qed.

Lemma open_position_tmp w t v s m l lim f w' subs :
  e_open_position w t v s m l lim f = Ok (w', subs) ->
  exists tm, e_tmp (w_eng w') = Some tm /\ ts_vamm tm = v /\ ts_trader tm = t /\ ts_side tm = s /\
    ts_open_notional tm = m * l / e_dec (ec (w_eng w)) /\ ts_leverage tm = l /\ ts_margin_amount tm = m /\
    ts_fees_paid tm = false /\ ts_mtv tm = szero.
Proof. intros H. destruct (open_position_shape _ _ _ _ _ _ _ _ _ _ H) as (pn & upnl & _ & -> & _). eexists. repeat split. Qed.

Lemma lrb_after_enter e v h : vm_lrb (read_vmap (enter_restriction_mode e v h) v) = h.
Proof. unfold enter_restriction_mode. rewrite read_vmap_set. reflexivity. Qed.

Lemma lrb_after_enter_other e v h v2 : v2 <> v -> read_vmap (enter_restriction_mode e v h) v2 = read_vmap e v2.
Proof. intros H. unfold read_vmap, enter_restriction_mode, eng_set_vmap. cbn [e_vmap]. rewrite zfind_zset_other by assumption. reflexivity. Qed.

Lemma liquidate_reply_marks w i o w' msgs tm :
  liquidate_reply w i o = Ok (w', msgs) -> e_tmp (w_eng w) = Some tm ->
  vm_lrb (read_vmap (w_eng w') (ts_vamm tm)) = height (w_env w) /\
  (forall v2, v2 <> ts_vamm tm -> read_vmap (w_eng w') v2 = read_vmap (w_eng w) v2) /\
  find_position (w_eng w') (ts_vamm tm) (ts_trader tm) = None.
Proof.
  intros H Htmp. unfold liquidate_reply, need_tmp in H. rewrite Htmp in H. cbn [bind] in H. arm H.
  cbn [w_eng set_eng]. split; [apply lrb_after_enter|]. split; [intros v2 Hn; exact (lrb_after_enter_other _ _ _ _ Hn)|].
  rewrite find_enter, find_set_liq, find_set_tmp, find_set_state.
  unfold find_position, positions_of, remove_position; cbn [e_pos]. rewrite zfind_zset_same. apply zfind_zdel_same.
Qed.

Lemma partial_liquidation_reply_marks w i o w' msgs tm :
  partial_liquidation_reply w i o = Ok (w', msgs) -> e_tmp (w_eng w) = Some tm ->
  vm_lrb (read_vmap (w_eng w') (ts_vamm tm)) = height (w_env w) /\
  (forall v2, v2 <> ts_vamm tm -> read_vmap (w_eng w') v2 = read_vmap (w_eng w) v2).
Proof.
  intros H Htmp. unfold partial_liquidation_reply, need_tmp in H. rewrite Htmp in H. cbn [bind] in H. arm H.
  cbn [w_eng set_eng]. split; [apply lrb_after_enter|intros v2 Hn; exact (lrb_after_enter_other _ _ _ _ Hn)].
Qed.

(* the replies to a trader's own swaps leave every vAMM's marker alone *)
Lemma trade_reply_vmap w i o id w' subs :
  update_position_reply w i o id = Ok (w', subs) \/ reverse_position_reply w i o = Ok (w', subs) \/
  close_position_reply w i o = Ok (w', subs) \/ partial_close_position_reply w i o = Ok (w', subs) ->
  e_vmap (w_eng w') = e_vmap (w_eng w).
Proof.
  unfold update_position_reply, reverse_position_reply, close_position_reply, partial_close_position_reply.
  intros [H|[H|[H|H]]]; arm H; reflexivity.
Qed.

(* the position-updating replies of a trader's own actions stamp the current block *)
Lemma update_position_reply_stamps w i o id w' subs tm :
  update_position_reply w i o id = Ok (w', subs) -> e_tmp (w_eng w) = Some tm ->
  exists p', find_position (w_eng w') (ts_vamm tm) (ts_trader tm) = Some p' /\ p_block p' = height (w_env w).
Proof.
  intros H Htmp. unfold update_position_reply, need_tmp in H. rewrite Htmp in H. cbn [bind] in H. arm H.
  eexists. cbn [w_eng set_eng]. rewrite find_set_sent, find_set_tmp, find_set_state. split; [apply find_store_same|reflexivity].
Qed.

Lemma reverse_position_reply_stamps w i o w' subs tm :
  reverse_position_reply w i o = Ok (w', subs) -> e_tmp (w_eng w) = Some tm ->
  exists p', find_position (w_eng w') (ts_vamm tm) (ts_trader tm) = Some p' /\ p_block p' = height (w_env w).
Proof.
  intros H Htmp. destruct (reverse_position_reply_spec _ _ _ _ _ _ H Htmp)
    as (st1 & fp & mg & bad & lat & fmsgs & spread & toll & x & _ & _ & _ & _ & [[-> _]|(q & sent & _ & -> & _)]);
    eexists; (split; [apply find_store_same|reflexivity]).
Qed.

Lemma partial_close_position_reply_stamps w i o w' subs tm :
  partial_close_position_reply w i o = Ok (w', subs) -> e_tmp (w_eng w) = Some tm ->
  exists p', find_position (w_eng w') (ts_vamm tm) (ts_trader tm) = Some p' /\ p_block p' = height (w_env w).
Proof.
  intros H Htmp. unfold partial_close_position_reply, need_tmp in H. rewrite Htmp in H. cbn [bind] in H.
  arm H; eexists; cbn [w_eng set_eng]; rewrite ?find_set_state, ?find_set_sent, ?find_set_tmp; (split; [apply find_store_same|reflexivity]).
Qed.

(* a partial liquidation does not stamp the liquidated position: its owner stays free to act unless they
   themselves acted in this block *)
Lemma partial_liquidation_reply_no_stamp w i o w' msgs tm :
  partial_liquidation_reply w i o = Ok (w', msgs) -> e_tmp (w_eng w) = Some tm ->
  exists p', find_position (w_eng w') (ts_vamm tm) (ts_trader tm) = Some p' /\
    p_block p' = p_block (get_position (w_eng w) (w_env w) (ts_vamm tm) (ts_trader tm) (ts_side tm)).
Proof.
  intros H Htmp. unfold partial_liquidation_reply, need_tmp in H. rewrite Htmp in H. cbn [bind] in H. arm H.
  eexists. cbn [w_eng set_eng]. rewrite find_enter, find_set_liq, find_set_tmp, find_set_state. split; [apply find_store_same|reflexivity].
Qed.

Lemma swap_input_in_band v e s d quote lim v' qa ba :
  wfv v -> v_fluct (vc v) <> 0 ->
  swap_input v e s d quote lim false = Ok (v', (qa, ba)) ->
  exists upper lower cur post,
    price_boundaries v e = Ok (upper, lower) /\
    spot_of (v_dec (vc v)) (v_q (vs v)) (v_b (vs v)) = Ok cur /\ in_band cur upper lower /\
    spot_of (v_dec (vc v')) (v_q (vs v')) (v_b (vs v')) = Ok post /\ in_band post upper lower.
Proof.
  intros Hw Hf H. unfold swap_input in H. arm H.
  match goal with Hi : input_price _ _ _ _ _ = Ok ?base, Hu : update_reserve _ _ _ _ _ _ = Ok _ |- _ =>
    pose proof (input_price_nonneg _ _ _ _ _ _ Hi) as Hba; pose proof Hu as Hc; unfold update_reserve in Hc;
    apply update_reserve_spec in Hu; [|apply Hw|exact Hba]; destruct Hu as (Hvc & _ & _ & _ & _ & _ & Hres) end.
  destruct (check_fluctuation v e d qa ba false) as [[]|] eqn:Ec; [|discriminate]. clear Hc.
  apply check_fluctuation_band in Ec; [|exact Hf]. destruct Ec as (upper & lower & cur & price & Hpb & Hcur & Hin & Hpost & Hin2).
  exists upper, lower, cur, price. repeat split; try assumption; try apply Hin; try apply Hin2.
  rewrite Hvc. destruct d; destruct Hres as (Eq & Eb & _); rewrite Eq, Eb; exact Hpost.
Qed.

(* a list that is one swap_output the engine is answered about: the vAMM swaps the base asked for, the engine is told
   what it got for it, and the messages of its answer are dispatched *)
Lemma dispatched_swap_output f w n v s b l id w' n' :
  dispatched f w n A_ENGINE [swap_output_msg v s b l id] w' n' ->
  exists vm vm' qa w2 subs, zfind v (w_vamms w) = Some vm /\
    swap_output vm (w_env w) A_ENGINE (side_to_direction s) b l = Ok (vm', (qa, b)) /\
    contract_reply (set_vamm w v vm') A_ENGINE id (Ok (EvSwap b qa)) = Ok (w2, subs) /\ dispatched f w2 (n + 1) A_ENGINE subs w' n'.
Proof.
  intros H. apply dispatched_single in H; [|reflexivity|reflexivity]. destruct H as (w1 & ev & w2 & subs & Ex & Er & Hd).
  cbn [swap_output_msg sm_msg sm_id] in Ex, Er. apply exec_swap_output in Ex. destruct Ex as (vm & vm' & qa & ba & Hz & Hsw & -> & ->).
  destruct (swap_output_quote _ _ _ _ _ _ _ _ _ Hsw) as [-> _]. eauto 10.
Qed.

Lemma dispatched_swap_input f w n v s q l c id w' n' :
  dispatched f w n A_ENGINE [swap_input_msg v s q l c id] w' n' ->
  exists vm vm' ba w2 subs, zfind v (w_vamms w) = Some vm /\
    swap_input vm (w_env w) A_ENGINE (side_to_direction s) q l c = Ok (vm', (q, ba)) /\
    contract_reply (set_vamm w v vm') A_ENGINE id (Ok (EvSwap q ba)) = Ok (w2, subs) /\ dispatched f w2 (n + 1) A_ENGINE subs w' n'.
Proof.
  intros H. apply dispatched_single in H; [|reflexivity|reflexivity]. destruct H as (w1 & ev & w2 & subs & Ex & Er & Hd).
  cbn [swap_input_msg sm_msg sm_id] in Ex, Er. apply exec_swap_input in Ex. destruct Ex as (vm & vm' & qa & ba & Hz & Hsw & -> & ->).
  destruct (swap_input_quote _ _ _ _ _ _ _ _ _ _ Hsw) as [-> _]. eauto 10.
Qed.

(* ClosePosition: the whole position is swapped out unless doing so would leave the price outside the band
   and the partial ratio is below 100%; then exactly floor(|size| x ratio / D) base is swapped out.  Either way
   the handler only records the swap it asks for. *)
Lemma close_position_shape w t v lim w' subs :
  e_close_position w t v lim = Ok (w', subs) ->
  let p := read_position (w_eng w) v t in
  let c := ec (w_eng w) in
  let dir := if sgtb (p_size p) szero then AddToAmm else RemoveFromAmm in
  exists vm over tm, get_vamm w v = Ok vm /\ q_is_over_fluctuation_limit vm (w_env w) dir (sval (p_size p)) = Ok over /\
    sval (p_size p) <> 0 /\
    w' = set_eng w (eng_set_tmp (w_eng w) (Some tm)) /\ ts_vamm tm = v /\ ts_trader tm = t /\
    if over && (e_plr c <? e_dec c)
    then ts_side tm = position_to_side (p_size p) /\
         subs = [swap_output_msg v (direction_to_side (p_dir p)) (sval (p_size p) * e_plr c / e_dec c) 0 PARTIAL_CLOSE_ID]
    else w' = fst (internal_close_position w v t p lim CLOSE_ID) /\
         subs = [swap_output_msg v (direction_to_side (p_dir p)) (sval (p_size p)) lim CLOSE_ID].
Proof.
  intros H. cbv zeta. unfold e_close_position, internal_close_position in H. arm H; arith_ok; subst;
    match goal with Hn : negb (_ =? 0) = true, Ho : ?o && _ = _ |- _ =>
      apply negb_true_iff, Z.eqb_neq in Hn; eexists _, o, _; rewrite Ho end;
    repeat split; assumption.
Qed.
