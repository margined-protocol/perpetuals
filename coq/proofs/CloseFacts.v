(* Closing pays exactly the equity; bad debt cannot be cashed out (C04); fees (C12). *)
From MP.Model Require Import Prelude U128 SInt Feed Vamm VammOps Token World Engine Runtime.
From MP.Proofs Require Import Tactics MapFacts SIntFacts EngineArith.

(* total amount the message list transfers (cw20 Transfer / bank Send) to address a *)
Fixpoint transfers_to (a : addr) (msgs : list submsg) : Z :=
  match msgs with
  | [] => 0
  | s :: rest =>
      (match sm_msg s with MTransfer to amt => if to =? a then amt else 0 | _ => 0 end) + transfers_to a rest
  end.

Lemma transfers_to_app a l1 l2 : transfers_to a (l1 ++ l2) = transfers_to a l1 + transfers_to a l2.
Proof. induction l1 as [|s l IH]; cbn [transfers_to app]; [lia|]. rewrite IH. lia. Qed.

Lemma q_calc_fee_spec v quote toll spread :
  q_calc_fee v quote = Ok (toll, spread) ->
  toll = quote * v_toll (vc v) / v_dec (vc v) /\ spread = quote * v_spread (vc v) / v_dec (vc v).
Proof.
  intros H. unfold q_calc_fee in H. destruct (Z.eqb_spec quote 0) as [E|E].
  - inv_ok. subst. rewrite !Z.mul_0_l. unfold Z.div; cbn. auto.
  - minv H. inv_ok. arith_ok. subst. auto.
Qed.

(* the fee messages: one transfer of the spread fee to the insurance fund, one of the toll fee to
   the fee pool, each only when non-zero, both taken from `from` (cw20) / the vault (native) *)
Lemma transfer_fees_spec w from vamm notional msgs spread toll :
  transfer_fees w from vamm notional = Ok (msgs, spread, toll) ->
  exists v, get_vamm w vamm = Ok v /\
  toll = notional * v_toll (vc v) / v_dec (vc v) /\ spread = notional * v_spread (vc v) / v_dec (vc v) /\
  msgs = (if negb (spread =? 0) then [execute_transfer_from w from (e_ifund (ec (w_eng w))) spread] else []) ++
         (if negb (toll =? 0) then [execute_transfer_from w from (e_feepool (ec (w_eng w))) toll] else []).
Proof.
  intros H. unfold transfer_fees in H. minv H. inv_ok.
  match goal with Hq : q_calc_fee _ _ = Ok _ |- _ => apply q_calc_fee_spec in Hq; destruct Hq end.
  eexists; repeat split; eauto.
Qed.

(* a cw20 TransferFrom is not a payout from the vault; a native fee transfer goes to the fund / pool *)
Lemma transfers_to_fees w from vamm notional msgs spread toll a :
  transfer_fees w from vamm notional = Ok (msgs, spread, toll) ->
  a <> e_ifund (ec (w_eng w)) -> a <> e_feepool (ec (w_eng w)) -> transfers_to a msgs = 0.
Proof.
  intros H Hi Hf. unfold transfer_fees in H. minv H. inv_ok.
  unfold execute_transfer_from.
  repeat destr_if; cbn [transfers_to app sm_msg]; repeat destr_if; zb; try lia.
Qed.

Lemma withdraw_spec w st receiver amount pre st' msgs :
  withdraw w st receiver amount pre = Ok (st', msgs) ->
  exists shortfall,
    (msgs = [execute_transfer receiver amount] /\ shortfall = 0 /\ st' = st \/
     msgs = [execute_insurance_fund_withdrawal w shortfall; execute_transfer receiver amount] /\
     0 < shortfall /\ shortfall = amount - (engine_balance w + pre) /\
     e_bad_debt st' = e_bad_debt st + shortfall /\ e_oi st' = e_oi st /\ e_pause st' = e_pause st).
Proof.
  unfold withdraw. intros H. minv H; inv_ok; arith_ok; subst; zb.
  - eexists. right. repeat split; try reflexivity; lia.
  - exists 0. left. auto.
Qed.

Lemma transfers_to_withdraw w st receiver amount pre st' msgs a :
  withdraw w st receiver amount pre = Ok (st', msgs) ->
  transfers_to a msgs = if receiver =? a then amount else 0.
Proof.
  intros H. apply withdraw_spec in H. destruct H as (sf & [ (E & _) | (E & _) ]); subst msgs;
  cbn [transfers_to sm_msg execute_transfer execute_insurance_fund_withdrawal]; destr_if; lia.
Qed.

Definition close_rpnl (p : position) (output open_notional : Z) : Z :=
  match p_dir p with AddToAmm => output - open_notional | RemoveFromAmm => open_notional - output end.

Lemma close_position_reply_spec w i o w' msgs swap :
  e_tmp (w_eng w) = Some swap ->
  let v := ts_vamm swap in let t := ts_trader swap in
  let p := get_position (w_eng w) (w_env w) v t (ts_side swap) in
  pos_wf p -> cpf_wf (w_eng w) v -> 0 < e_dec (ec (w_eng w)) ->
  0 <= o -> 0 <= ts_open_notional swap -> ts_upnl swap = szero ->
  t <> e_ifund (ec (w_eng w)) -> t <> e_feepool (ec (w_eng w)) ->
  close_position_reply w i o = Ok (w', msgs) ->
  let equity := p_margin p + close_rpnl p o (ts_open_notional swap) - funding_owed w v p in
  0 <= equity /\ transfers_to t msgs = equity /\
  find_position (w_eng w') v t = None /\ e_tmp (w_eng w') = None /\ w_tok w' = w_tok w /\ w_vamms w' = w_vamms w.
Proof.
  intros Htmp v t p Hp Hc HD Ho Hon Hup Hti Htf H.
  unfold close_position_reply, need_tmp in H. rewrite Htmp in H. cbn [bind] in H.
  fold v t in H. cbv zeta in H. fold p in H. rewrite Hup in H. arm H. zb. subst.
  set (r := p_margin p + close_rpnl p o (ts_open_notional swap) - funding_owed w v p).
  (* the amount withdrawn is the remaining margin, which is the equity since there is no bad debt *)
  match goal with Hd : match p_dir p with _ => _ end = Ok ?md, Hrm : calc_remain_margin _ _ _ _ = Ok (_, ?margin, _, _),
                  Ha : schecked_add _ szero = Ok ?wa |- _ =>
    assert (Hmd : toZ md = close_rpnl p o (ts_open_notional swap) /\ wf0 md)
      by (unfold close_rpnl; destruct (p_dir p); apply ssub_toZ0 in Hd; try (apply spos_wf0; lia); rewrite !toZ_spos in Hd; tauto);
    destruct Hmd as [Hmd Hwmd];
    apply calc_remain_margin_spec in Hrm; auto; destruct Hrm as (_ & _ & Hr); cbv zeta in Hr; rewrite Hmd in Hr;
    destruct Hr as (Hneg & Hpos & Hm0 & _);
    apply schecked_add_toZ0 in Ha; [|apply spos_wf0; lia|unfold wf0; cbn; lia];
    destruct Ha as (Zwa & Wwa & _); rewrite toZ_spos in Zwa; change (toZ szero) with 0 in Zwa;
    assert (Hr0 : 0 <= r /\ sval wa = r)
      by (rewrite (wf0_toZ_abs wa Wwa), Zwa; fold r in Hneg, Hpos; destruct (Z_lt_ge_dec r 0) as [Hlt|Hge]; [destruct (Hneg ltac:(lia))|destruct (Hpos ltac:(lia))]; lia)
  end.
  destruct Hr0 as [Hr0 Hsw]. split; [exact Hr0|]. split; [|repeat split].
  - rewrite transfers_to_app.
    match goal with Hf : (if negb (_ =? 0) then _ else _) = Ok ?m |- _ =>
      assert (Hm2 : transfers_to t m = 0) by (minv Hf; inv_ok; pairs; [eapply transfers_to_fees; eassumption|reflexivity]) end.
    match goal with Hw : (if negb (s_is_zero _) then _ else _) = Ok (_, ?m) |- _ =>
      minv Hw; inv_ok; [rewrite (transfers_to_withdraw _ _ _ _ _ _ _ t Hw), Z.eqb_refl; lia|unfold s_is_zero in *; zb; cbn [transfers_to]; lia] end.
  - unfold find_position, positions_of, remove_position, eng_set_tmp, eng_set_state; cbn [w_eng set_eng e_pos].
    rewrite zfind_zset_same. apply zfind_zdel_same.
Qed.
