(* Collateral ledger facts: conservation through every primitive, handler and dispatch (C03). *)
From MP.Model Require Import Prelude U128 SInt Feed Vamm VammOps Token World Engine Runtime.
From MP.Proofs Require Import Tactics MapFacts RuntimeFacts HandlerFacts.

Lemma sum_bal_zset k v l : sum_bal (zset k v l) = sum_bal l - match zfind k l with Some b => b | None => 0 end + v.
Proof.
  induction l as [|[k' b] t IH]; cbn [zset zfind sum_bal]; [lia|].
  destruct (k =? k'); cbn [sum_bal]; [lia|]. rewrite IH. lia.
Qed.

Lemma bal_set_same t a v : bal (set_bal t a v) a = v.
Proof. unfold bal, set_bal; cbn. rewrite zfind_zset_same. reflexivity. Qed.
Lemma bal_set_other t a b v : b <> a -> bal (set_bal t a v) b = bal t b.
Proof. intros H. unfold bal, set_bal; cbn. rewrite zfind_zset_other by auto. reflexivity. Qed.

Lemma total_set_bal t a v : total_supply (set_bal t a v) = total_supply t - bal t a + v.
Proof. unfold total_supply, set_bal, bal; cbn. apply sum_bal_zset. Qed.

Lemma tok_move_total t from to amt t' : tok_move t from to amt = Ok t' ->
  total_supply t' = total_supply t /\ t_native t' = t_native t.
Proof.
  unfold tok_move. intros H. minv H. inv_ok. arith_ok. subst.
  rewrite !total_set_bal. cbn [t_native set_bal]. split; [lia|reflexivity].
Qed.

Lemma tok_move_from_total t sp owner to amt t' : tok_move_from t sp owner to amt = Ok t' ->
  total_supply t' = total_supply t /\ t_native t' = t_native t.
Proof.
  unfold tok_move_from. intros H. minv H. inv_ok. arith_ok. subst.
  rewrite !total_set_bal. cbn [t_native set_bal]. split; [|reflexivity].
  change (total_supply (mkToken _ (t_bal t) _)) with (total_supply t). lia.
Qed.

Lemma tok_move_frame t from to amt t' a : tok_move t from to amt = Ok t' -> a <> from -> a <> to -> bal t' a = bal t a.
Proof.
  unfold tok_move. intros H Hf Ht. minv H. inv_ok.
  rewrite bal_set_other by auto. rewrite bal_set_other by auto. reflexivity.
Qed.
Lemma tok_move_from_frame t sp owner to amt t' a : tok_move_from t sp owner to amt = Ok t' -> a <> owner -> a <> to -> bal t' a = bal t a.
Proof.
  unfold tok_move_from. intros H Hf Ht. minv H. inv_ok.
  rewrite bal_set_other by auto. rewrite bal_set_other by auto. unfold bal. reflexivity.
Qed.

Definition wtotal (w : world) : Z := total_supply (w_tok w).

Lemma exec_simple_total w sender m w' ev : exec_simple w sender m = Ok (w', ev) -> wtotal w' = wtotal w.
Proof.
  unfold exec_simple, wtotal. intros H. destruct m; minv H; inv_ok; cbn [w_tok set_vamm set_tok]; try reflexivity.
  - apply tok_move_total in Hx. tauto.
  - apply tok_move_from_total in Hx. tauto.
Qed.

Lemma dispatched_total f w n sender subs w' n' : dispatched f w n sender subs w' n' -> wtotal w' = wtotal w.
Proof.
  intros H. apply (dispatched_inv (fun x => wtotal x = wtotal w)) in H; [exact H| | |reflexivity].
  - intros w0 c m w1 ev Hx <-. eapply exec_simple_total; eauto.
  - intros w0 c id ev w1 sb Hx <-. unfold wtotal. rewrite (contract_reply_tok _ _ _ _ _ _ Hx). reflexivity.
Qed.

Lemma engine_execute_tok w s m f w' subs : engine_execute w s m f = Ok (w', subs) -> w_tok w' = w_tok w.
Proof. intros H. destruct (engine_execute_eng _ _ _ _ _ _ H) as (e' & -> & _). reflexivity. Qed.

Lemma attach_funds_total w s c f w' : attach_funds w s c f = Ok w' -> wtotal w' = wtotal w.
Proof.
  intros H. destruct (attach_funds_tok _ _ _ _ _ H) as [[_ ->]|(_ & _ & t & Hm & ->)]; [reflexivity|].
  apply tok_move_total in Hm. apply Hm.
Qed.

Definition is_mint (o : op) : bool :=
  match o with OToken _ (TMint _ _) => true | _ => false end.

(* C03: every transaction other than the set-up mint leaves the total collateral unchanged *)
Lemma exec_op_total f w o w' : exec_op f w o = Ok w' -> is_mint o = false -> wtotal w' = wtotal w.
Proof.
  intros H Hm. pose proof (exec_op_cases _ _ _ _ H) as Hc. destruct o.
  - subst. reflexivity.
  - apply exec_engine_inv in H. destruct H as (w0 & w1 & subs & n & Ha & He & Hd).
    rewrite (dispatched_total _ _ _ _ _ _ _ Hd). unfold wtotal. rewrite (engine_execute_tok _ _ _ _ _ _ He).
    exact (attach_funds_total _ _ _ _ _ Ha).
  - destruct Hc as (vm & vm' & _ & ->). reflexivity.
  - destruct Hc as (i & subs & n & _ & Hd). exact (dispatched_total _ _ _ _ _ _ _ Hd).
  - destruct Hc as (i & subs & n & _ & Hd). exact (dispatched_total _ _ _ _ _ _ _ Hd).
  - destruct Hc as [fd ->]. reflexivity.
  - cbn [exec_op] in H. destruct m; cbn [is_mint] in Hm; try discriminate; arm H; unfold wtotal; cbn [w_tok set_tok].
    + unfold tok_increase_allowance in Hx. arm Hx. reflexivity.
    + apply tok_move_total in Hx. apply Hx.
Qed.
