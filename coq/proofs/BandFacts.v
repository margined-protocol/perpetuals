(* Behind C15's end-to-end theorem: the spot price stays inside the band around the previous block's reference price
   through an OpenPosition's message tree.  `open_position_tx_goal` carries any property of the sender's position that
   the replies establish through such a transaction (C05 margin ratio, C16 stamp); the margin-ratio facts for C05 follow it. *)
From MP.Model Require Import Prelude U128 SInt Feed Vamm VammOps Token World Engine Runtime.
From MP.Proofs Require Import Tactics MapFacts VammFacts SwapFacts HandlerFacts ResidueFacts MirrorFacts MoreFacts PendingFacts.

(* the reference snapshot of the band does not move within the block: either the newest snapshot belongs to
   an earlier block, or there is an older one *)
Definition stable (vm : vamm) (e : env) : Prop :=
  match snaps vm with [] => False | latest :: older => s_height latest <> height e \/ older <> [] end.

Lemma update_reserve_boundaries v e d qa ba cgo v' :
  update_reserve v e d qa ba cgo = Ok v' -> stable v e ->
  price_boundaries v' e = price_boundaries v e /\ stable v' e.
Proof.
  unfold update_reserve. intros H Hs. arm H.
  unfold price_boundaries, stable in *. cbn [snaps vc].
  match goal with Ha : add_reserve_snapshot _ _ _ _ = Ok _ |- _ => unfold add_reserve_snapshot in Ha; rename Ha into Ea end.
  destruct (snaps v) as [|latest older]; [contradiction|].
  destruct (s_height latest =? height e) eqn:Eh; inv_ok.
  - cbn [s_height]. rewrite Eh. destruct Hs as [Hs|Hs]; [apply Z.eqb_eq in Eh; contradiction|].
    destruct older as [|prev rest]; [contradiction|]. split; [reflexivity|right; discriminate].
  - cbn [s_height]. rewrite Z.eqb_refl. split; [reflexivity | right; discriminate].
Qed.

Lemma swap_output_boundaries v e s d base lim v' qa ba :
  swap_output v e s d base lim = Ok (v', (qa, ba)) -> stable v e ->
  price_boundaries v' e = price_boundaries v e /\ stable v' e.
Proof.
  unfold swap_output. intros H Hs. minv H. inv_ok.
  match goal with Hu : update_reserve _ _ _ _ _ _ = Ok _ |- _ => exact (update_reserve_boundaries _ _ _ _ _ _ _ Hu Hs) end.
Qed.

(* the spot price of v0 lies in the band that vm0 defines, or t0 holds no position there *)
Definition goalb (vm0 : vamm) (e0 : env) (v0 t0 : addr) (w : world) : Prop :=
  (exists vm, zfind v0 (w_vamms w) = Some vm /\
     exists upper lower p, price_boundaries vm0 e0 = Ok (upper, lower) /\
       spot_of (v_dec (vc vm)) (v_q (vs vm)) (v_b (vs vm)) = Ok p /\ in_band p upper lower) \/
  sval (p_size (read_position (w_eng w) v0 t0)) = 0.

Lemma goalb_core vm0 e0 v0 t0 : core_closed (goalb vm0 e0 v0 t0).
Proof. intros w w1 (E1 & E2 & E3) H. unfold goalb in *. rewrite E1, E2. exact H. Qed.

(* what holds when the replying swap of an OpenPosition is about to run *)
Definition pendb (vm0 : vamm) (e0 : env) (v0 t0 : addr) (w : world) (m : msg) (id : Z) : Prop :=
  w_env w = e0 /\
  exists vm, zfind v0 (w_vamms w) = Some vm /\ wfv vm /\ v_fluct (vc vm) <> 0 /\
    price_boundaries vm e0 = price_boundaries vm0 e0 /\
    (((id = INCREASE_ID \/ id = DECREASE_ID) /\ exists d q l, m = MSwapInput v0 d q l false) \/
     (id = REVERSE_ID /\ (exists d b l, m = MSwapOutput v0 d b l /\ 0 <= b) /\ stable vm e0 /\
        exists tm, e_tmp (w_eng w) = Some tm /\ ts_vamm tm = v0 /\ ts_trader tm = t0)).

Lemma pendb_core vm0 e0 v0 t0 : core_closed_p (pendb vm0 e0 v0 t0).
Proof. intros w w1 m id (E1 & E2 & E3) H. unfold pendb in *. rewrite E1, E2, E3. exact H. Qed.

Lemma pendb_is_swap vm0 e0 v0 t0 w m id : pendb vm0 e0 v0 t0 w m id -> is_swap m = true.
Proof.
  intros (_ & vm & _ & _ & _ & _ & [(_ & d & q & l & ->) | (_ & (d & b & l & -> & _) & _)]); reflexivity.
Qed.

Lemma pair_band vm0 e0 v0 t0 w m id w1 ev w2 subs :
  pendb vm0 e0 v0 t0 w m id ->
  exec_simple w A_ENGINE m = Ok (w1, ev) ->
  contract_reply w1 A_ENGINE id (Ok ev) = Ok (w2, subs) ->
  readyg (goalb vm0 e0 v0 t0) (pendb vm0 e0 v0 t0) w2 subs.
Proof.
  intros (Henv & vm & Hz & Hwf & Hfl & Hpb & Hcase) Hex Hre.
  pose proof (contract_reply_vamms _ _ _ _ _ _ Hre) as Ev. pose proof (contract_reply_env _ _ _ _ _ _ Hre) as Ee.
  destruct Hcase as [(Hid & d & q & l & ->) | (-> & (d & b & l & -> & Hb) & Hst & tm & Htmp & Hv & Ht)].
  - (* a swap_input that may not go over the band, then the increase / reduce reply *)
    apply exec_swap_input in Hex. destruct Hex as (vm1 & vm' & qa & ba & Hz1 & Hsw & -> & ->).
    rewrite Hz in Hz1. injection Hz1 as <-. rewrite Henv in Hsw.
    pose proof (swap_input_in_band _ _ _ _ _ _ _ _ _ Hwf Hfl Hsw) as (upper & lower & cur & post & Hb1 & _ & _ & Hpost & Hin).
    apply readyg_leafy.
    + destruct Hid as [-> | ->]; autorewrite with reply_id in Hre; exact (update_position_reply_leafy _ _ _ _ _ _ Hre).
    + left. exists vm'. split; [rewrite Ev; apply zfind_zset_same|].
      exists upper, lower, post. rewrite <- Hpb. auto.
  - (* the reversal: the old position is swapped out, then either nothing or a re-opening swap_input *)
    apply exec_swap_output in Hex. destruct Hex as (vm1 & vm' & qa & ba & Hz1 & Hsw & -> & ->).
    rewrite Hz in Hz1. injection Hz1 as <-. rewrite Henv in Hsw.
    pose proof (swap_output_boundaries _ _ _ _ _ _ _ _ _ Hsw Hst) as [Hpb' Hst'].
    pose proof (swap_output_c01 _ _ _ _ _ _ _ _ _ Hwf Hb Hsw) as (Hwf' & _ & _ & Hvc & _).
    rewrite reply_reverse in Hre.
    destruct (reverse_position_reply_shape _ _ _ _ _ _ Hre Htmp) as (Hw & [Hl | (fees & q & Hl & -> & _)]).
    + apply readyg_leafy; [exact Hl|]. right. unfold read_position. rewrite <- Hv, <- Ht, (writes_find _ _ _ _ _ Hw). reflexivity.
    + apply readyg_leafy_app; [exact Hl|].
      cbn [readyg internal_increase_position swap_input_msg sm_reply wants_ok sm_msg sm_id].
      split; [reflexivity|split; [reflexivity|]].
      split; [rewrite Ee; exact Henv|]. exists vm'. split; [rewrite Ev; apply zfind_zset_same|].
      split; [exact Hwf'|]. split; [rewrite Hvc; exact Hfl|]. split; [rewrite Hpb'; exact Hpb|].
      left. split; [left; reflexivity|]. rewrite Hv. do 3 eexists. reflexivity.
Qed.

Lemma open_position_readyb w t v s m l lim f w1 subs vm0 :
  e_open_position w t v s m l lim f = Ok (w1, subs) ->
  zfind v (w_vamms w) = Some vm0 -> wfv vm0 -> v_fluct (vc vm0) <> 0 -> stable vm0 (w_env w) ->
  (forall p, find_position (w_eng w) v t = Some p -> 0 <= sval (p_size p)) ->
  readyg (goalb vm0 (w_env w) v t) (pendb vm0 (w_env w) v t) w1 subs.
Proof.
  intros H Hz Hwf Hfl Hst Hpos. destruct (open_position_shape _ _ _ _ _ _ _ _ _ _ H) as (pn & upnl & _ & -> & ->).
  assert (Hb3 : 0 <= sval (p_size (get_position (w_eng w) (w_env w) v t s)))
    by (unfold get_position; destruct (find_position (w_eng w) v t) eqn:Ef; [exact (Hpos _ eq_refl)|cbn; lia]).
  destruct (_ || _ || _); [|match goal with |- context [if ?c then swap_input_msg _ _ _ _ _ _ else _] => destruct c end];
    cbn [readyg internal_increase_position swap_input_msg swap_output_msg sm_reply wants_ok sm_msg sm_id];
    (split; [reflexivity|split; [reflexivity|]]); (split; [reflexivity|]); exists vm0;
    (split; [exact Hz|split; [exact Hwf|split; [exact Hfl|split; [reflexivity|]]]]).
  - left. split; [left; reflexivity|]. do 3 eexists. reflexivity.
  - left. split; [right; reflexivity|]. do 3 eexists. reflexivity.
  - right. split; [reflexivity|]. split; [do 3 eexists; split; [reflexivity|exact Hb3]|]. split; [exact Hst|].
    eexists. split; [reflexivity|split; reflexivity].
Qed.

Definition pendo (v0 t0 : addr) (w : world) (m : msg) (id : Z) : Prop :=
  exists tm, e_tmp (w_eng w) = Some tm /\ ts_vamm tm = v0 /\ ts_trader tm = t0 /\
    (((id = INCREASE_ID \/ id = DECREASE_ID) /\ exists d q l c, m = MSwapInput v0 d q l c) \/
     (id = REVERSE_ID /\ exists d b l, m = MSwapOutput v0 d b l)).

Lemma pendo_core v0 t0 : core_closed_p (pendo v0 t0).
Proof. intros w w1 m id (E1 & _) H. unfold pendo in *. rewrite E1. exact H. Qed.

Lemma pendo_swap v0 t0 w m id : pendo v0 t0 w m id -> is_swap m = true.
Proof. intros (tm & _ & _ & _ & [(_ & d & q & l & c & ->) | (_ & d & b & l & ->)]); reflexivity. Qed.

Lemma open_position_pendo G w t v s m l lim f w1 subs :
  e_open_position w t v s m l lim f = Ok (w1, subs) -> readyg G (pendo v t) w1 subs.
Proof.
  intros H. destruct (open_position_shape _ _ _ _ _ _ _ _ _ _ H) as (pn & upnl & _ & -> & ->).
  destruct (_ || _ || _); [|match goal with |- context [if ?c then swap_input_msg _ _ _ _ _ _ else _] => destruct c end];
    cbn [readyg internal_increase_position swap_input_msg swap_output_msg sm_reply wants_ok sm_msg sm_id];
    (split; [reflexivity|split; [reflexivity|]]); eexists; (split; [reflexivity|split; [reflexivity|split; [reflexivity|]]]).
  - left. split; [left; reflexivity|]. do 4 eexists. reflexivity.
  - left. split; [right; reflexivity|]. do 4 eexists. reflexivity.
  - right. split; [reflexivity|]. do 3 eexists. reflexivity.
Qed.

(* G v t: a property of t's position on v that the increase / reduce reply establishes and that holds of a position
   the reversal leaves empty.  The reversal's re-opening swap is answered by the increase reply. *)
Lemma open_position_tx_goal (G : addr -> addr -> world -> Prop) :
  (forall v t, core_closed (G v t)) ->
  (forall w i o id w' subs tm, update_position_reply w i o id = Ok (w', subs) -> e_tmp (w_eng w) = Some tm ->
     w_env w' = w_env w -> G (ts_vamm tm) (ts_trader tm) w') ->
  (forall w i o w' subs tm, reverse_position_reply w i o = Ok (w', subs) -> e_tmp (w_eng w) = Some tm ->
     sval (p_size (read_position (w_eng w') (ts_vamm tm) (ts_trader tm))) = 0 -> G (ts_vamm tm) (ts_trader tm) w') ->
  forall f w t v s m l lim funds w',
    exec_op f w (OEngine t (EOpenPosition v s m l lim) funds) = Ok w' -> G v t w'.
Proof.
  intros HG Hup Hflat f w t v s m l lim funds w' H.
  apply exec_engine_tok in H. destruct H as (tk & w1 & subs & n & He & Hd).
  apply (open_position_pendo (G v t)) in He. revert Hd He.
  apply dispatched_pending; [apply HG|apply pendo_core|apply pendo_swap|].
  clear - Hup Hflat. intros w m id w1 ev w2 subs (tm & Htmp & <- & <- & Hcase) Hex Hre.
  pose proof (contract_reply_env _ _ _ _ _ _ Hre) as He.
  destruct Hcase as [(Hid & d & q & l & c & ->) | (-> & d & b & l & ->)].
  - apply exec_swap_input in Hex. destruct Hex as (vm & vm' & qa & ba & _ & _ & -> & ->).
    assert (Hrep : exists id', update_position_reply (set_vamm w (ts_vamm tm) vm') qa ba id' = Ok (w2, subs))
      by (destruct Hid as [-> | ->]; autorewrite with reply_id in Hre; eauto).
    destruct Hrep as [id' Hrep].
    apply readyg_leafy; [exact (update_position_reply_leafy _ _ _ _ _ _ Hrep)|]. exact (Hup _ _ _ _ _ _ _ Hrep Htmp He).
  - apply exec_swap_output in Hex. destruct Hex as (vm & vm' & qa & ba & _ & _ & -> & ->).
    rewrite reply_reverse in Hre.
    destruct (reverse_position_reply_shape _ _ _ _ _ _ Hre Htmp) as (Hw & [Hl | (fees & q & Hl & -> & tm' & Htm' & Hv' & Ht' & _)]).
    + apply readyg_leafy; [exact Hl|]. apply (Hflat _ _ _ _ _ _ Hre Htmp). unfold read_position. rewrite (writes_find _ _ _ _ _ Hw). reflexivity.
    + apply readyg_leafy_app; [exact Hl|].
      cbn [readyg internal_increase_position swap_input_msg sm_reply wants_ok sm_msg sm_id].
      split; [reflexivity|split; [reflexivity|]].
      exists tm'. split; [exact Htm'|]. split; [exact Hv'|]. split; [exact Ht'|].
      left. split; [left; reflexivity|]. do 4 eexists. reflexivity.
Qed.

(* the margin ratio reads only what same_core keeps, so "flat or margined" is a goal open_position_tx_goal accepts (C05) *)
Lemma get_pnl_core w w1 v p o : same_core w w1 -> o <> POracle -> get_pnl w1 v p o = get_pnl w v p o.
Proof.
  intros (E1 & E2 & E3) Ho. unfold get_pnl, get_vamm. rewrite E1, E2, E3.
  destruct o; try contradiction; reflexivity.
Qed.

Lemma calc_remain_margin_core w w1 v p d : same_core w w1 -> calc_remain_margin w1 v p d = calc_remain_margin w v p d.
Proof. intros (E1 & _). unfold calc_remain_margin. rewrite E1. reflexivity. Qed.

Lemma query_margin_ratio_core w w1 v t : same_core w w1 -> query_margin_ratio w1 v t = query_margin_ratio w v t.
Proof.
  intros Hc. unfold query_margin_ratio, margin_ratio_of.
  rewrite !(get_pnl_core w w1) by (try exact Hc; discriminate).
  destruct Hc as (E1 & E2 & E3). rewrite E1.
  destruct (s_is_zero _); [reflexivity|].
  destruct (get_pnl w v _ PSpot) as [sp|]; [|reflexivity]. cbn [bind].
  destruct (get_pnl w v _ PTwap) as [tw|]; [|reflexivity]. cbn [bind].
  destruct (pick_pnl sp tw) as [n pn].
  rewrite (calc_remain_margin_core w w1) by (repeat split; assumption). reflexivity.
Qed.

Definition ratio_ok (v0 t0 : addr) (w : world) : Prop :=
  sval (p_size (read_position (w_eng w) v0 t0)) = 0 \/
  exists mr, query_margin_ratio w v0 t0 = Ok mr /\ sltb mr (spos (e_maint (ec (w_eng w)))) = false.

Lemma ratio_ok_core v0 t0 : core_closed (ratio_ok v0 t0).
Proof.
  intros w w1 Hc [H|(mr & H1 & H2)]; pose proof Hc as (E1 & _).
  - left. rewrite E1. exact H.
  - right. exists mr. rewrite (query_margin_ratio_core w w1) by exact Hc. rewrite E1. auto.
Qed.

