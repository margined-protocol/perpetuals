(* What the engine's guards demand: leverage bounds (C05), restriction mode (C16), the funding schedule (C11); the pause
   flag, which Liquidate does not read (C14). *)
From MP.Model Require Import Prelude U128 SInt Feed Vamm VammOps Token World Engine Runtime.
From MP.Proofs Require Import Tactics SIntFacts.

Lemma require_additional_margin_pos a b u : require_additional_margin (spos a) b = Ok u -> 0 <= a -> 0 <= b -> b <= a.
Proof.
  unfold require_additional_margin. intros H Ha Hb. rewrite sltb_spos0 in H by auto using spos_wf0.
  destruct (Z.ltb_spec (toZ (spos a)) b) as [|Hle]; [discriminate|exact Hle].
Qed.

Lemma restriction_blocks w v t :
  vm_lrb (read_vmap (w_eng w) v) = height (w_env w) ->
  p_block (read_position (w_eng w) v t) = height (w_env w) ->
  require_not_restriction_mode w v t = Err EGuard.
Proof. intros H1 H2. unfold require_not_restriction_mode. rewrite H1, H2, !Z.eqb_refl. reflexivity. Qed.

Lemma ok_tt (r : res unit) u : r = Ok u -> r = Ok tt.
Proof. destruct u. exact id. Qed.

Lemma open_restricted w t v s m l lim f r :
  e_open_position w t v s m l lim f = Ok r -> require_not_restriction_mode w v t = Ok tt.
Proof. unfold e_open_position. intros H. minv H; eauto using ok_tt. Qed.
Lemma close_restricted w t v lim r :
  e_close_position w t v lim = Ok r -> require_not_restriction_mode w v t = Ok tt.
Proof. unfold e_close_position. intros H. minv H; eauto using ok_tt. Qed.

Lemma settle_funding_spec v e s o v' pf :
  settle_funding v e s o = Ok (v', pf) ->
  v_open (vs v) = true /\ s = v_engine (vc v) /\ v_next_funding (vs v) <= now e /\
  exists underlying index premium p1,
    o_twap o (v_twap_interval (vc v)) = Ok underlying /\
    q_twap_price v e (v_twap_interval (vc v)) = Ok index /\
    schecked_sub (spos index) (spos underlying) = Ok premium /\
    schecked_mul premium (spos (v_fperiod (vc v))) = Ok p1 /\
    schecked_div p1 (spos ONE_DAY) = Ok pf /\
    now e + v_fbuffer (vc v) <= v_next_funding (vs v') /\
    (now e + v_fperiod (vc v)) / ONE_HOUR * ONE_HOUR <= v_next_funding (vs v').
Proof.
  unfold settle_funding. intros H. minv H. inv_ok. zb. cbn.
  apply add64_ok in Hx6, Hx7. subst.
  repeat split; auto.
  do 4 eexists. repeat split; eauto; destr_if; zb; lia.
Qed.

(* the world with the pause flag put to b.  Liquidate does not read the flag (C14): an arm run on that world is the arm
   run on w, with the flag put to b afterwards *)
Definition set_pause_flag (w : world) (b : bool) : world :=
  set_eng w (eng_set_state (w_eng w) (mkEstate (e_oi (es (w_eng w))) (e_bad_debt (es (w_eng w))) b)).

Definition flagged {A} (b : bool) (r : res (world * A)) : res (world * A) :=
  match r with Ok (w1, m) => Ok (set_pause_flag w1 b, m) | Err e => Err e end.

(* Both sides bind the same value and continue alike.  What the arm reads from the world with the flag set is, by
   computation, what it reads from the world itself, so applying this lemma lines the two computations up bind by bind. *)
Lemma flagged_bind {A B} b (X : res A) (F G : A -> res (world * B)) :
  (forall x, F x = flagged b (G x)) -> bind X F = flagged b (bind X G).
Proof. intros H. destruct X; [apply H|reflexivity]. Qed.

Lemma flagged_if {A} b (c : bool) (X1 X2 Y1 Y2 : res (world * A)) :
  X1 = flagged b Y1 -> X2 = flagged b Y2 -> (if c then X1 else X2) = flagged b (if c then Y1 else Y2).
Proof. destruct c; auto. Qed.

Lemma with_liq_pause w s b :
  set_eng (set_pause_flag w b) (eng_set_liq (w_eng (set_pause_flag w b)) (Some s)) =
  set_pause_flag (set_eng w (eng_set_liq (w_eng w) (Some s))) b.
Proof. reflexivity. Qed.

Lemma partial_liquidation_pause w v t lim b :
  partial_liquidation (set_pause_flag w b) v t lim = flagged b (partial_liquidation w v t lim).
Proof. unfold partial_liquidation. repeat (apply flagged_bind; intros ?). reflexivity. Qed.
