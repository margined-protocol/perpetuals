(* An OpenPosition transaction that opens a new position: what it pays to the insurance fund and the fee pool (C12),
   and the swap it executes and the position it stores (C17). *)
From MP.Model Require Import Prelude U128 SInt Feed Vamm VammOps Token World Engine Runtime.
From MP.Proofs Require Import Tactics VammFacts MapFacts SIntFacts CloseFacts HandlerFacts MirrorFacts FlowFacts CloseTxFacts.

Lemma update_position_reply_fresh w i o w' subs tm :
  update_position_reply w i o INCREASE_ID = Ok (w', subs) -> e_tmp (w_eng w) = Some tm ->
  ts_fees_paid tm = false -> ts_mtv tm = szero -> 0 <= ts_open_notional tm -> 0 <= ts_leverage tm -> 0 <= e_dec (ec (w_eng w)) ->
  exists e1 pull fmsgs spread toll,
    subs = pull ++ fmsgs /\ ec e1 = ec (w_eng w) /\
    (pull = [] \/ exists x, pull = [execute_transfer_from (set_eng w e1) (ts_trader tm) A_ENGINE x]) /\
    transfer_fees (set_eng w e1) (ts_trader tm) (ts_vamm tm) (ts_open_notional tm) = Ok (fmsgs, spread, toll).
Proof.
  intros H Htmp Hfp Hmtv Hon Hlev HD. unfold update_position_reply, need_tmp in H. rewrite Htmp in H. cbn [bind] in H.
  rewrite Hfp, Hmtv, Z.eqb_refl in H. cbn [negb] in H. arm H.
  match goal with Hr : bind (cmul _ _) _ = Ok _ |- _ => minv Hr; inv_ok end. arith_ok. subst.
  match goal with Hf : bind (transfer_fees _ _ _ _) _ = Ok _ |- _ => minv Hf; inv_ok end.
  (* the margin to move into the vault is not negative: no payout to the trader *)
  match goal with Hm : schecked_add szero (spos ?sm) = Ok ?mtv |- _ =>
    assert (Hsm : 0 <= sm) by (apply Z_div_nonneg_nonneg; [apply Z.mul_nonneg_nonneg; lia|lia]);
    apply schecked_add_toZ0 in Hm; [|unfold wf0; cbn; lia|apply spos_wf0; exact Hsm]; destruct Hm as (Zm & Wm & _);
    change (toZ szero) with 0 in Zm; rewrite toZ_spos in Zm;
    assert (Hlt : sltb mtv szero = false) by (change szero with (spos 0); rewrite sltb_spos0 by (auto; lia); apply Z.ltb_ge; lia)
  end.
  match goal with Hp : (if sltb _ _ then _ else _) = Ok _ |- _ => rewrite Hlt in Hp; minv Hp; inv_ok end.
  all: do 5 eexists; (split; [reflexivity|]); (split; [|split; [|eassumption]]); [reflexivity|eauto..].
Qed.

Lemma open_new_position_shape w t v s m l lim f w1 subs :
  e_open_position w t v s m l lim f = Ok (w1, subs) -> find_position (w_eng w) v t = None ->
  let n := m * l / e_dec (ec (w_eng w)) in
  exists pn upnl sf, subs = [internal_increase_position v s n lim] /\
    w1 = set_eng w (eng_set_sent (eng_set_tmp (w_eng w) (Some (mkTmp v t s m l n pn upnl szero false))) (Some sf)).
Proof.
  intros H Hnone. destruct (open_position_shape _ _ _ _ _ _ _ _ _ _ H) as (pn & upnl & _ & -> & ->).
  unfold get_position. rewrite Hnone. do 3 eexists. split; reflexivity.
Qed.

Theorem open_new_position_tx_fees f w t v s m l lim funds w' vm :
  exec_op f w (OEngine t (EOpenPosition v s m l lim) funds) = Ok w' ->
  find_position (w_eng w) v t = None ->
  get_vamm w v = Ok vm -> 0 <= m -> 0 <= l -> 0 < e_dec (ec (w_eng w)) ->
  let ifund := e_ifund (ec (w_eng w)) in let pool := e_feepool (ec (w_eng w)) in
  ifund <> pool -> ifund <> A_ENGINE -> pool <> A_ENGINE -> t <> ifund -> t <> pool ->
  let notional := m * l / e_dec (ec (w_eng w)) in
  bal (w_tok w') ifund = bal (w_tok w) ifund + fee_of vm notional (v_spread (vc vm)) /\
  bal (w_tok w') pool = bal (w_tok w) pool + fee_of vm notional (v_toll (vc vm)).
Proof.
  intros H Hnone Hvm Hm Hl HD ifund pool Hd1 Hd2 Hd3 Hd4 Hd5 notional.
  destruct (swap_tx _ _ _ _ _ _ H) as (tk & w1 & subs & Hnat & Hbal & He & Hrun). cbn [engine_execute] in He.
  destruct (open_new_position_shape _ _ _ _ _ _ _ _ _ _ He Hnone) as (pn & upnl & sf & -> & ->).
  cbn [w_eng set_tok] in Hrun. fold notional in Hrun.
  destruct (Hrun _ eq_refl eq_refl eq_refl) as (w2 & ev & wr & msgs & Hx & Hr & Hfl).
  cbn [internal_increase_position swap_input_msg sm_msg sm_id] in Hx, Hr.
  apply exec_swap_input in Hx. destruct Hx as (vm0 & vm' & qa & ba & Hz & Hsw & -> & ->).
  unfold get_vamm in Hvm. cbn [w_vamms set_eng set_tok] in Hz. rewrite Hz in Hvm. injection Hvm as ->.
  pose proof (swap_input_vc _ _ _ _ _ _ _ _ Hsw) as Hvc. cbn [fst] in Hvc.
  rewrite reply_increase in Hr. destruct (Hfl (update_position_reply_leafy _ _ _ _ _ _ Hr)) as [_ Hflow].
  assert (Hn : 0 <= notional) by (apply Z.div_pos; [apply Z.mul_nonneg_nonneg; lia|lia]).
  eapply update_position_reply_fresh in Hr; [|reflexivity..|exact Hn|exact Hl|cbn; lia].
  destruct Hr as (e1 & pull & fmsgs & spread & toll & -> & Hec1 & Hpull & Hfees).
  cbn [ts_trader ts_vamm ts_open_notional] in Hpull, Hfees. change (ec e1 = ec (w_eng w)) in Hec1.
  assert (Hfa : forall a, a <> A_ENGINE -> a <> t ->
            bal (w_tok w') a = bal (w_tok w) a + ind (a =? ifund) spread + ind (a =? pool) toll).
  { intros a Ha1 Ha2. rewrite Hflow, flow_app, (flow_fees _ _ _ _ _ _ _ _ _ a Hfees), Hbal.
    assert (Hp0 : exists x, flow A_ENGINE (if_engine (w_if w)) a pull = ind (a =? A_ENGINE) x - ind (a =? if t_native tk then A_ENGINE else t) x).
    { destruct Hpull as [->|[x ->]]; [exists 0; unfold ind; repeat destr_if; reflexivity|exists x; apply flow_transfer_from]. }
    cbn [w_eng w_tok set_eng set_vamm set_tok]. rewrite Hec1. fold ifund pool.
    destruct Hp0 as [x ->]. rewrite !ind_other by assumption. unfold ind.
    destruct (Z.eqb_spec a A_ENGINE); [contradiction|]. destruct (Z.eqb_spec a t); [contradiction|lia]. }
  apply transfer_fees_spec in Hfees. destruct Hfees as (v1 & Hv1 & Htl & Hsp & _).
  unfold get_vamm in Hv1. cbn [w_vamms set_eng set_vamm] in Hv1. rewrite zfind_zset_same in Hv1. injection Hv1 as <-.
  rewrite Hvc in Htl, Hsp. fold (fee_of vm notional (v_toll (vc vm))) in Htl. fold (fee_of vm notional (v_spread (vc vm))) in Hsp.
  rewrite <- Htl, <- Hsp. unfold ind in Hfa. split.
  - rewrite (Hfa ifund Hd2 ltac:(congruence)), Z.eqb_refl. destruct (Z.eqb_spec ifund pool); [contradiction|lia].
  - rewrite (Hfa pool Hd3 ltac:(congruence)), Z.eqb_refl. destruct (Z.eqb_spec pool ifund); [congruence|lia].
Qed.

(* C17 at the engine: the swap a new-position OpenPosition executes is the swap_input of the requested notional
   carrying the caller's limit unchanged, and the stored position holds exactly the base it exchanged *)
Theorem open_new_position_tx_swap f w t v s m l lim funds w' vm :
  exec_op f w (OEngine t (EOpenPosition v s m l lim) funds) = Ok w' ->
  find_position (w_eng w) v t = None -> get_vamm w v = Ok vm -> 0 < e_dec (ec (w_eng w)) ->
  wf0 (v_total (vs vm)) ->
  let notional := m * l / e_dec (ec (w_eng w)) in
  exists vm' ba, swap_input vm (w_env w) A_ENGINE (side_to_direction s) notional lim false = Ok (vm', (notional, ba)) /\
    0 <= ba /\
    exists p, find_position (w_eng w') v t = Some p /\ toZ (p_size p) = match s with Buy => ba | Sell => - ba end.
Proof.
  intros H Hnone Hvm HD Hwt notional.
  destruct (swap_tx _ _ _ _ _ _ H) as (tk & w1 & subs & _ & _ & He & Hrun). cbn [engine_execute] in He.
  destruct (open_new_position_shape _ _ _ _ _ _ _ _ _ _ He Hnone) as (pn & upnl & sf & -> & ->).
  cbn [w_eng set_tok] in Hrun. fold notional in Hrun.
  destruct (Hrun _ eq_refl eq_refl eq_refl) as (w2 & ev & wr & msgs & Hx & Hr & Hfl).
  cbn [internal_increase_position swap_input_msg sm_msg sm_id] in Hx, Hr.
  apply exec_swap_input in Hx. destruct Hx as (vm0 & vm' & qa & ba & Hz & Hsw & -> & ->).
  unfold get_vamm in Hvm. cbn [w_vamms w_env set_eng set_tok] in Hz, Hsw. rewrite Hz in Hvm. injection Hvm as ->.
  pose proof (swap_input_total _ _ _ _ _ _ _ _ _ _ Hsw Hwt) as (Hba & _ & _).
  assert (qa = notional) by (unfold swap_input in Hsw; minv Hsw; inv_ok; reflexivity). subst qa.
  rewrite reply_increase in Hr. destruct (Hfl (update_position_reply_leafy _ _ _ _ _ _ Hr)) as [(Ee & _) _].
  eapply update_position_reply_shape in Hr; [|reflexivity]. cbv zeta in Hr. cbn [ts_vamm ts_trader ts_side] in Hr.
  destruct Hr as (p' & (Wp & _) & Hadd & _).
  unfold get_position in Hadd. change (find_position _ v t) with (find_position (w_eng w) v t) in Hadd. rewrite Hnone in Hadd. cbn [p_size] in Hadd.
  destruct (signed_out_facts s ba Hba) as (Hso1 & _ & Hso3).
  apply sadd_toZ0 in Hadd; [|unfold wf0; cbn; lia|exact Hso1]. destruct Hadd as (Za & _ & _).
  change (toZ szero) with 0 in Za.
  exists vm', ba. split; [exact Hsw|]. split; [exact Hba|]. exists p'. split.
  - rewrite Ee. unfold find_position. rewrite Wp. apply zfind_zset_same.
  - rewrite Za, Hso3. destruct s; cbn [side_to_direction]; lia.
Qed.
