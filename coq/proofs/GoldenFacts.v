(* The golden computation, evaluated by the kernel.  The OCaml driver evaluates the same definition with the
   extracted code (`modelrun --golden`); the two must agree (tools/vlib.py golden_check). *)
From MP.Model Require Import Prelude U128 SInt Feed Vamm VammOps Token World Engine Runtime Scenario.

Example golden_is_expected : golden tt = golden_expected tt.
Proof. vm_compute. reflexivity. Qed.

(* every operation of the golden history succeeds, on both deployments: the values above come from real work *)
Fixpoint steps_ok (w : world) (ops : list op) : bool :=
  match ops with [] => true | o :: r => snd (step_f (-1) w o) && steps_ok (step w o) r end.

Lemma steps_ok_nth d : forall ops w k, steps_ok w ops = true -> (k < length ops)%nat ->
  snd (step_f (-1) (run w (firstn k ops)) (nth k ops d)) = true.
Proof.
  induction ops as [|o r IH]; intros w k H Hk; [inversion Hk|]. cbn [steps_ok] in H. apply andb_prop in H. destruct H as [H1 H2].
  destruct k as [|k]; [exact H1|]. apply (IH (step w o)); [exact H2|]. apply le_S_n, Hk.
Qed.

(* step k of the statement, run from the k-th prefix, is step k of the one walk `steps_ok` makes (steps_ok_nth) *)
Example golden_ops_all_succeed :
  match scenario, scenario_native with
  | Ok w, Ok wn =>
      forallb (fun k => snd (step_f (-1) (run w (firstn k (golden_ops false))) (nth k (golden_ops false) (OBlock 0 0)))) (seq 0 14) &&
      forallb (fun k => snd (step_f (-1) (run wn (firstn k (golden_ops true))) (nth k (golden_ops true) (OBlock 0 0)))) (seq 0 14)
  | _, _ => false
  end = true.
Proof.
  assert (H : match scenario with Ok w => steps_ok w (golden_ops false) | Err _ => false end = true) by (vm_compute; reflexivity).
  assert (Hn : match scenario_native with Ok w => steps_ok w (golden_ops true) | Err _ => false end = true) by (vm_compute; reflexivity).
  destruct scenario as [w|]; [|discriminate H]. destruct scenario_native as [wn|]; [|discriminate Hn].
  apply andb_true_intro. split; apply forallb_forall; intros k Hk; apply in_seq in Hk;
    (apply steps_ok_nth; [assumption|apply Hk]).
Qed.
