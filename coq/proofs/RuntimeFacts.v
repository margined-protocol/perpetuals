(* The sub-message runtime.  A reply to an error is an error, so a dispatch that succeeds never took an
   error arm and never met the fault index: it is a derivation of `dispatched`, and everything that holds
   of successful dispatches is proved by induction on that derivation. *)
From MP.Model Require Import Prelude U128 SInt Feed Vamm VammOps Token World Engine Runtime.
From MP.Proofs Require Import Tactics.

Lemma contract_reply_err w c id e : exists e', contract_reply w c id (Err e) = Err e'.
Proof. unfold contract_reply, engine_reply. destruct (c =? A_ENGINE); eauto. Qed.

(* one message, executed by contract c in dispatch slot n.  A draw on the insurance fund is the fund's own
   transfer to its beneficiary, dispatched in the next slot. *)
Inductive runs (f : Z) (w : world) (n : Z) (c : addr) : msg -> world -> Z -> event -> Prop :=
| runs_simple m w1 ev : exec_simple w c m = Ok (w1, ev) -> runs f w n c m w1 (n + 1) ev
| runs_draw amt w1 ev :
    c = if_engine (w_if w) -> n + 1 <> f -> exec_simple w A_IFUND (MTransfer c amt) = Ok (w1, ev) ->
    runs f w n c (MIfWithdraw A_IFUND amt) w1 (n + 2) EvNone.

Inductive dispatched (f : Z) : world -> Z -> addr -> list submsg -> world -> Z -> Prop :=
| disp_nil w n c : dispatched f w n c [] w n
| disp_quiet w n c s rest w1 n1 ev w' n' :
    n <> f -> runs f w n c (sm_msg s) w1 n1 ev -> wants_ok (sm_reply s) = false ->
    dispatched f w1 n1 c rest w' n' ->
    dispatched f w n c (s :: rest) w' n'
| disp_reply w n c s rest w1 n1 ev w2 subs w3 n3 w' n' :
    n <> f -> runs f w n c (sm_msg s) w1 n1 ev -> wants_ok (sm_reply s) = true ->
    contract_reply w1 c (sm_id s) (Ok ev) = Ok (w2, subs) ->
    dispatched f w2 n1 c subs w3 n3 -> dispatched f w3 n3 c rest w' n' ->
    dispatched f w n c (s :: rest) w' n'.

Lemma dispatch_dispatched fuel : forall f w n c subs w' n',
  dispatch fuel f w n c subs = Ok (w', n') -> dispatched f w n c subs w' n'.
Proof.
  induction fuel as [|k IH]; intros f w n c subs w' n' H; [discriminate|].
  cbn [dispatch] in H. destruct subs as [|s rest]; [inv_ok; constructor|].
  match type of H with match ?r with _ => _ end = _ => destruct r as [[[w1 n1] ev]|e] eqn:Er end.
  - assert (n <> f /\ runs f w n c (sm_msg s) w1 n1 ev) as [Hf Hr].
    { destruct (Z.eqb_spec n f); [discriminate|]. split; [assumption|].
      destruct (sm_msg s);
        try (destruct (exec_simple w c _) as [[w0 ev0]|] eqn:Ex; [|discriminate]; cbn [bind fst snd] in Er; inv_ok;
             constructor; exact Ex).
      (* the fund answers with one silent transfer *)
      unfold if_withdraw in Er. destruct (target =? A_IFUND) eqn:Et; [|discriminate].
      destruct (c =? if_engine (w_if w)) eqn:Ec; [|discriminate]. cbn [bind fst snd] in Er.
      destruct (dispatch k f w (n + 1) A_IFUND _) as [[w0 m0]|] eqn:Ed; [|discriminate]. cbn [bind fst snd] in Er.
      inv_ok. zb. subst. apply IH in Ed.
      inversion Ed as [|? ? ? ? ? ? ? ? ? ? Hn1 Hr1 _ Hd1|]; subst; [|discriminate].
      inversion Hd1; subst. inversion Hr1; subst. replace (n + 1 + 1) with (n + 2) by lia.
      econstructor; eauto. }
    destruct (wants_ok (sm_reply s)) eqn:Ew.
    + minv H. destruct x as [w2 subs], x0 as [w3 n3]. cbn [fst snd] in *. eapply disp_reply; eauto.
    + eapply disp_quiet; eauto.
  - destruct (wants_err (sm_reply s)); [|discriminate].
    destruct (contract_reply_err w c (sm_id s) e) as [e' He]. rewrite He in H. discriminate.
Qed.

(* an invariant kept by every message execution and every reply handler is kept by dispatch *)
Lemma dispatched_inv (P : world -> Prop) :
  (forall w c m w' ev, exec_simple w c m = Ok (w', ev) -> P w -> P w') ->
  (forall w c id ev w' subs, contract_reply w c id (Ok ev) = Ok (w', subs) -> P w -> P w') ->
  forall f w n c subs w' n', dispatched f w n c subs w' n' -> P w -> P w'.
Proof.
  intros Hs Hr f w n c subs w' n' H.
  assert (Hrun : forall w n c m w1 n1 ev, runs f w n c m w1 n1 ev -> P w -> P w1) by (destruct 1; eauto).
  induction H; eauto.
Qed.

(* a list none of whose messages is replied to only executes messages; Q says which, and holds of every transfer
   because a draw on the fund runs as the fund's transfer (runs_draw) *)
Lemma dispatched_quiet (Q : msg -> Prop) (P : world -> Prop) :
  (forall to amt, Q (MTransfer to amt)) ->
  (forall w c m w' ev, Q m -> exec_simple w c m = Ok (w', ev) -> P w -> P w') ->
  forall f w n c subs w' n', dispatched f w n c subs w' n' ->
    Forall (fun s => wants_ok (sm_reply s) = false /\ Q (sm_msg s)) subs -> P w -> P w'.
Proof.
  intros Ht Hs f w n c subs w' n' H.
  induction H as [|? ? ? s ? ? ? ? ? ? ? Hr|? ? ? s]; intros Hq Pw; [exact Pw| |];
    inversion Hq as [|? ? [Hq0 Hq1] Hq2]; subst; [|congruence].
  apply IHdispatched; [exact Hq2|]. destruct Hr; eauto.
Qed.

(* a relation R between the world and the list still to be dispatched, kept by every message that runs and by
   every reply, holds of the final world and the empty list.  After a reply, its messages are dispatched before
   the rest of the list. *)
Lemma dispatched_ready (R : world -> list submsg -> Prop) c :
  (forall f w n s rest w1 n1 ev, R w (s :: rest) -> wants_ok (sm_reply s) = false ->
     runs f w n c (sm_msg s) w1 n1 ev -> R w1 rest) ->
  (forall f w n s rest w1 n1 ev w2 subs, R w (s :: rest) -> wants_ok (sm_reply s) = true ->
     runs f w n c (sm_msg s) w1 n1 ev -> contract_reply w1 c (sm_id s) (Ok ev) = Ok (w2, subs) ->
     R w2 subs /\ forall w3, R w3 [] -> R w3 rest) ->
  forall f w n subs w' n', dispatched f w n c subs w' n' -> R w subs -> R w' [].
Proof.
  intros Hq Hr f w n subs w' n' H. induction H as [| |? ? ? s ? ? ? ? ? ? ? ? ? ? Hn Hx Hw Hc]; intros HR; eauto.
  destruct (Hr _ _ _ _ _ _ _ _ _ _ HR Hw Hx Hc) as [H2 H3]. auto.
Qed.

(* the dispatch counter only grows, and the fault index is not among the slots a successful dispatch used *)
Lemma dispatched_counter f w n c subs w' n' :
  dispatched f w n c subs w' n' -> n <= n' /\ (f < n \/ n' <= f).
Proof.
  assert (Hrun : forall w n c m w1 n1 ev, runs f w n c m w1 n1 ev -> n <> f -> n < n1 /\ (f < n \/ n1 <= f))
    by (destruct 1; lia).
  induction 1; repeat match goal with Hr : runs _ _ _ _ _ _ _ _ |- _ => apply Hrun in Hr; [|assumption] end; lia.
Qed.

(* a failed transaction returns the world it was given, so only successful ones need to keep I *)
Lemma step_f_inv (I : world -> Prop) f w o : (forall w', exec_op f w o = Ok w' -> I w') -> I w -> I (fst (step_f f w o)).
Proof. intros H Hi. unfold step_f. destruct (exec_op f w o); cbn [fst]; auto. Qed.

Lemma run_inv (I : world -> Prop) (ok : op -> Prop) :
  (forall w o, ok o -> I w -> I (step w o)) -> forall ops w, Forall ok ops -> I w -> I (run w ops).
Proof.
  intros H ops. induction ops as [|o ops IH]; intros w Hf Hi; [exact Hi|].
  inversion Hf; subst. cbn [run fold_left]. apply IH; auto.
Qed.
