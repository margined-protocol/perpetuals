(* The transaction that is one replying swap, and what its leaf messages do to the ledger.
   C04 end to end: what a whole-position ClosePosition transaction does to the closer's wallet. *)
From MP.Model Require Import Prelude U128 SInt Feed Vamm VammOps Token World Engine Runtime.
From MP.Proofs Require Import Tactics MapFacts VammFacts SwapFacts EngineArith CloseFacts HandlerFacts ResidueFacts MirrorFacts MoreFacts FlowFacts.

(* If the arm answers with one replying swap, the swap runs, the engine's reply runs on the result, and the reply's
   messages - leaves, for every reply but the reversal's - change no record and move balances by their flow. *)
Lemma swap_tx f w s m funds w' : exec_op f w (OEngine s m funds) = Ok w' ->
  exists tk w1 subs, t_native tk = t_native (w_tok w) /\
    (forall a, bal tk a = bal (w_tok w) a + ind (a =? A_ENGINE) funds - ind (a =? s) funds) /\
    engine_execute (set_tok w tk) s m funds = Ok (w1, subs) /\
    forall sw, subs = [sw] -> sm_reply sw = RAlways -> is_swap (sm_msg sw) = true ->
    exists w2 ev w3 msgs, exec_simple w1 A_ENGINE (sm_msg sw) = Ok (w2, ev) /\
      contract_reply w2 A_ENGINE (sm_id sw) (Ok ev) = Ok (w3, msgs) /\
      (Forall leafy msgs -> same_core w3 w' /\
         forall a, bal (w_tok w') a = bal tk a + flow A_ENGINE (if_engine (w_if w)) a msgs).
Proof.
  intros H. destruct (engine_tx _ _ _ _ _ _ H) as (tk & w1 & subs & n & Hnat & _ & Hbal & He & Et & Ei & Hd).
  exists tk, w1, subs. repeat (split; [assumption|]). intros sw -> Hra Hsw.
  destruct (dispatched_single _ _ _ _ _ _ _ Hd Hra Hsw) as (w2 & ev & w3 & msgs & Hx & Hr & Hd').
  exists w2, ev, w3, msgs. repeat (split; [assumption|]). intros Hl.
  split; [exact (dispatched_leafy_core _ _ _ _ _ _ _ Hd' Hl)|].
  destruct (dispatched_leafy_flow _ _ _ _ _ _ _ Hd' Hl) as [_ Hfl].
  destruct (contract_reply_eng _ _ _ _ _ _ Hr) as (e3 & -> & _).
  assert (E : w_tok w2 = tk /\ w_if w2 = w_if w).
  { rewrite <- Et, <- Ei. destruct (sm_msg sw); try discriminate Hsw; cbn [exec_simple] in Hx; minv Hx; inv_ok; split; reflexivity. }
  destruct E as [Et2 Ei2]. intros a. rewrite (Hfl a). cbn [w_tok w_if set_eng]. rewrite Et2, Ei2. reflexivity.
Qed.

(* what a message list pulls out of a's wallet through the engine's allowance *)
Fixpoint pulled_from (a : addr) (msgs : list submsg) : Z :=
  match msgs with
  | [] => 0
  | s :: rest => (match sm_msg s with MTransferFrom owner _ amt => ind (a =? owner) amt | _ => 0 end) + pulled_from a rest
  end.

Lemma pulled_from_app a l1 l2 : pulled_from a (l1 ++ l2) = pulled_from a l1 + pulled_from a l2.
Proof. induction l1 as [|s l IH]; cbn [pulled_from app]; [lia|]. rewrite IH. lia. Qed.

Lemma flow_split ie a msgs : a <> A_ENGINE -> a <> A_IFUND -> a <> ie ->
  flow A_ENGINE ie a msgs = paid_to a msgs - pulled_from a msgs.
Proof.
  intros H1 H2 H3. induction msgs as [|s rest IH]; cbn [flow paid_to pulled_from]; [lia|]. rewrite IH.
  unfold ind. destruct (sm_msg s); try lia.
  - rewrite (Z.eqb_sym to a). destruct (Z.eqb_spec a to); destruct (Z.eqb_spec a A_ENGINE); try lia; contradiction.
  - rewrite (Z.eqb_sym to a). destruct (Z.eqb_spec a to); destruct (Z.eqb_spec a owner); lia.
  - destruct (Z.eqb_spec a ie); destruct (Z.eqb_spec a A_IFUND); try lia; contradiction.
Qed.

(* lists that pull from no wallet: vault payouts and insurance-fund draws *)
Definition no_pulls (msgs : list submsg) : Prop :=
  Forall (fun s => match sm_msg s with MTransferFrom _ _ _ => False | _ => True end) msgs.

Lemma no_pulls_flow a msgs : no_pulls msgs -> paid_to a msgs = transfers_to a msgs /\ pulled_from a msgs = 0.
Proof.
  induction 1 as [|s rest Hs Hr IH]; cbn [paid_to transfers_to pulled_from]; [split; reflexivity|].
  destruct IH as [I1 I2]. rewrite I1, I2. destruct (sm_msg s); try contradiction; split; lia.
Qed.

Lemma no_pulls_withdraw w st r a p st' msgs : withdraw w st r a p = Ok (st', msgs) -> no_pulls msgs.
Proof. intros H. apply withdraw_spec in H. destruct H as (sf & [ (E & _) | (E & _) ]); subst msgs; repeat constructor. Qed.

Lemma flow_no_pulls ie a msgs : no_pulls msgs -> a <> A_ENGINE -> a <> A_IFUND -> a <> ie ->
  flow A_ENGINE ie a msgs = transfers_to a msgs.
Proof. intros Hn H1 H2 H3. rewrite flow_split by assumption. destruct (no_pulls_flow a msgs Hn) as [-> ->]. lia. Qed.

Lemma ind_other a (c : bool) p q x : a <> p -> a <> q -> ind (a =? if c then p else q) x = 0.
Proof. intros Hp Hq. unfold ind. destruct c; [destruct (Z.eqb_spec a p)|destruct (Z.eqb_spec a q)]; contradiction || reflexivity. Qed.

(* a transfer into `r`: out of the payer's wallet (cw20) or out of the sender's own balance (native) *)
Lemma flow_transfer_from w sdr ie a o r x :
  flow sdr ie a [execute_transfer_from w o r x] = ind (a =? r) x - ind (a =? if t_native (w_tok w) then sdr else o) x.
Proof. unfold execute_transfer_from. destruct (t_native (w_tok w)); cbn [flow sm_msg]; lia. Qed.

Lemma flow_fee_msg w sdr ie a o r x :
  flow sdr ie a (if negb (x =? 0) then [execute_transfer_from w o r x] else []) =
  ind (a =? r) x - ind (a =? if t_native (w_tok w) then sdr else o) x.
Proof.
  destruct (Z.eqb_spec x 0) as [->|_]; cbn [negb]; [unfold ind; repeat destr_if; reflexivity|apply flow_transfer_from].
Qed.

Lemma flow_fees w from v n msgs spread toll sdr ie a : transfer_fees w from v n = Ok (msgs, spread, toll) ->
  flow sdr ie a msgs = ind (a =? e_ifund (ec (w_eng w))) spread + ind (a =? e_feepool (ec (w_eng w))) toll
                       - ind (a =? if t_native (w_tok w) then sdr else from) (spread + toll).
Proof.
  unfold transfer_fees. intros H. arm H. rewrite flow_app, !flow_fee_msg. unfold ind.
  destruct (a =? if t_native (w_tok w) then sdr else from); lia.
Qed.

Lemma paid_fees_pool w from vamm notional msgs spread toll :
  transfer_fees w from vamm notional = Ok (msgs, spread, toll) ->
  e_ifund (ec (w_eng w)) <> e_feepool (ec (w_eng w)) ->
  paid_to (e_feepool (ec (w_eng w))) msgs = toll.
Proof.
  intros H Hd. apply transfer_fees_spec in H. destruct H as (v & _ & _ & _ & ->).
  rewrite paid_to_app. unfold execute_transfer_from.
  destruct (t_native (w_tok w)); destruct (Z.eqb_spec spread 0); destruct (Z.eqb_spec toll 0); cbn [negb paid_to sm_msg];
  rewrite ?Z.eqb_refl; repeat destr_if; zb; subst; try lia; try congruence.
Qed.

Lemma pulled_fees_other w from vamm notional msgs spread toll a :
  transfer_fees w from vamm notional = Ok (msgs, spread, toll) -> a <> from -> pulled_from a msgs = 0.
Proof.
  intros H Ha. apply transfer_fees_spec in H. destruct H as (v & _ & _ & _ & ->).
  rewrite pulled_from_app. unfold execute_transfer_from.
  repeat destr_if; cbn [pulled_from sm_msg]; unfold ind; repeat destr_if; zb; try lia; congruence.
Qed.

Definition fee_of (vm : vamm) (notional ratio : Z) : Z := notional * ratio / v_dec (vc vm).

Lemma close_position_reply_msgs w i o w' msgs swap :
  e_tmp (w_eng w) = Some swap -> close_position_reply w i o = Ok (w', msgs) ->
  let v := ts_vamm swap in let t := ts_trader swap in
  let p := get_position (w_eng w) (w_env w) v t (ts_side swap) in
  exists wm fm, msgs = wm ++ fm /\
    (wm = [] \/ exists st amt st', withdraw w st t amt 0 = Ok (st', wm)) /\
    (p_notional p = 0 /\ fm = [] \/ exists spread toll, transfer_fees w t v (p_notional p) = Ok (fm, spread, toll)).
Proof.
  intros Htmp H v t p. unfold close_position_reply, need_tmp in H. rewrite Htmp in H. cbn [bind] in H.
  fold v t in H. cbv zeta in H. fold p in H. arm H.
  do 2 eexists. split; [reflexivity|]. split.
  - match goal with Hw : (if negb (s_is_zero _) then _ else _) = Ok _ |- _ => minv Hw; inv_ok; eauto 6 end.
  - match goal with Hf : (if negb (_ =? 0) then _ else _) = Ok _ |- _ => minv Hf; inv_ok; zb; auto end.
    right. match goal with f : (list submsg * Z * Z)%type |- _ => destruct f as [[fm sp] tl] end. eauto.
Qed.

(* a ClosePosition after which no position is left closed the whole position: the swap, the state the close reply
   ran in, its messages - the payout wm, then the fees fm on the position's notional - and the ledger afterwards *)
Lemma close_position_tx_whole f w t v lim funds w' :
  exec_op f w (OEngine t (EClosePosition v lim) funds) = Ok w' ->
  let p := read_position (w_eng w) v t in
  let c := ec (w_eng w) in
  find_position (w_eng w') v t = None ->
  exists tk vm vm' o wr wm fm,
    (forall a, bal tk a = bal (w_tok w) a + ind (a =? A_ENGINE) funds - ind (a =? t) funds) /\
    get_vamm w v = Ok vm /\
    swap_output vm (w_env w) A_ENGINE (p_dir p) (sval (p_size p)) lim = Ok (vm', (o, sval (p_size p))) /\ 0 <= o /\
    let ws := set_vamm (fst (internal_close_position (set_tok w tk) v t p lim CLOSE_ID)) v vm' in
    close_position_reply ws (sval (p_size p)) o = Ok (wr, wm ++ fm) /\
    (forall s, get_position (w_eng ws) (w_env ws) v t s = p) /\
    no_pulls wm /\ (forall a, a <> t -> transfers_to a wm = 0) /\
    (forall a, a <> e_ifund c -> a <> e_feepool c -> transfers_to a fm = 0) /\
    (let sp := fee_of vm (p_notional p) (v_spread (vc vm)) in let tl := fee_of vm (p_notional p) (v_toll (vc vm)) in
     forall a, flow A_ENGINE (if_engine (w_if w)) a fm =
       ind (a =? e_ifund c) sp + ind (a =? e_feepool c) tl - ind (a =? if t_native (w_tok w) then A_ENGINE else t) (sp + tl)) /\
    forall a, bal (w_tok w') a = bal tk a + flow A_ENGINE (if_engine (w_if w)) a (wm ++ fm).
Proof.
  intros H p c Hnone. destruct (swap_tx _ _ _ _ _ _ H) as (tk & w1 & subs & Hnat & Hbal & He & Hrun).
  cbn [engine_execute] in He. apply close_position_shape in He. cbv zeta in He. cbn [w_eng set_tok] in He. fold p in He.
  destruct He as (vm & over & tm & Hvm & _ & Hnz & Ew & Hv & Ht & Hsub).
  destruct (over && _); [destruct Hsub as [_ ->]; subst w1|destruct Hsub as [-> ->]; clear Ew tm Hv Ht].
  - (* the partial-close reply leaves a position *)
    exfalso. destruct (Hrun _ eq_refl eq_refl eq_refl) as (w2 & ev & wr & msgs & Hx & Hr & Hfl).
    cbn [swap_output_msg sm_msg sm_id] in Hx, Hr.
    apply exec_swap_output in Hx. destruct Hx as (vm1 & vm' & o & ba & _ & _ & -> & ->).
    rewrite reply_partial_close in Hr. destruct (Hfl (partial_close_position_reply_leafy _ _ _ _ _ Hr)) as [(Ee & _) _].
    destruct (partial_close_position_reply_stamps _ _ _ _ _ tm Hr eq_refl) as (p' & Hf' & _).
    rewrite Hv, Ht, <- Ee in Hf'. congruence.
  - destruct (Hrun _ eq_refl eq_refl eq_refl) as (w2 & ev & wr & msgs & Hx & Hr & Hfl).
    cbn [internal_close_position snd swap_output_msg sm_msg sm_id] in Hx, Hr. rewrite dir_side_inv in Hx.
    apply exec_swap_output in Hx. destruct Hx as (vm1 & vm' & o & ba & Hz & Hsw & -> & ->).
    unfold get_vamm in Hvm. cbn [internal_close_position fst w_vamms w_env set_eng set_tok] in Hz, Hsw, Hvm.
    rewrite Hz in Hvm. injection Hvm as ->.
    rewrite reply_close in Hr. destruct (Hfl (close_position_reply_leafy _ _ _ _ _ Hr)) as [_ Hflow].
    pose proof (swap_output_vc _ _ _ _ _ _ _ Hsw) as Hvc. cbn [fst] in Hvc.
    destruct (swap_output_amounts _ _ _ _ _ _ _ _ _ Hsw) as [Ho ->].
    match type of Hr with close_position_reply ?W _ _ = _ => set (ws := W) in * end.
    assert (Hget : forall s, get_position (w_eng ws) (w_env ws) v t s = p).
    { intros s. unfold get_position. change (find_position (w_eng ws) v t) with (find_position (w_eng w) v t).
      rewrite (read_position_found _ _ _ Hnz). reflexivity. }
    destruct (close_position_reply_msgs ws _ _ _ _ _ eq_refl Hr) as (wm & fm & -> & Hwm & Hfm). cbv zeta in Hfm.
    cbn [ts_vamm ts_trader ts_side] in Hwm, Hfm. rewrite Hget in Hfm.
    exists tk, vm, vm', o, wr, wm, fm. split; [exact Hbal|]. split; [unfold get_vamm; rewrite Hz; reflexivity|].
    split; [exact Hsw|]. split; [exact Ho|]. split; [exact Hr|]. split; [exact Hget|].
    split; [|split]; [destruct Hwm as [->|(st & amt & st' & Hw)]; [constructor|exact (no_pulls_withdraw _ _ _ _ _ _ _ Hw)]| |].
    { intros a Ha. destruct Hwm as [->|(st & amt & st' & Hw)]; [reflexivity|].
      rewrite (transfers_to_withdraw _ _ _ _ _ _ _ a Hw). destruct (Z.eqb_spec t a); [congruence|reflexivity]. }
    split; [|split; [|exact Hflow]]; destruct Hfm as [[Hn0 ->]|(spread & toll & Hfees)]; try (intros; reflexivity).
    + intros a. exact (transfers_to_fees _ _ _ _ _ _ _ a Hfees).
    + cbv zeta. intros a. unfold fee_of. rewrite Hn0, !Z.mul_0_l. change (0 / _) with 0. unfold ind. repeat destr_if; reflexivity.
    + cbv zeta. intros a. rewrite (flow_fees _ _ _ _ _ _ _ _ _ a Hfees).
      apply transfer_fees_spec in Hfees. destruct Hfees as (v1 & Hv1 & -> & -> & _).
      unfold get_vamm in Hv1. cbn [ws w_vamms set_vamm] in Hv1. rewrite zfind_zset_same in Hv1. injection Hv1 as <-.
      cbn [ws w_tok set_vamm set_eng set_tok internal_close_position fst]. rewrite Hnat, Hvc. reflexivity.
Qed.

Theorem close_position_tx_pays f w t v lim funds w' :
  exec_op f w (OEngine t (EClosePosition v lim) funds) = Ok w' ->
  let p := read_position (w_eng w) v t in
  pos_wf p -> cpf_wf (w_eng w) v -> 0 < e_dec (ec (w_eng w)) ->
  t <> A_ENGINE -> t <> A_IFUND -> t <> if_engine (w_if w) ->
  t <> e_ifund (ec (w_eng w)) -> t <> e_feepool (ec (w_eng w)) ->
  (* the position was closed whole (no position left) *)
  find_position (w_eng w') v t = None ->
  exists vm vm' o, get_vamm w v = Ok vm /\
    swap_output vm (w_env w) A_ENGINE (p_dir p) (sval (p_size p)) lim = Ok (vm', (o, sval (p_size p))) /\
    let equity := p_margin p + close_rpnl p o (p_notional p) - funding_owed w v p in
    0 <= equity /\
    bal (w_tok w') t = bal (w_tok w) t - funds + equity
      - (if t_native (w_tok w) then 0 else fee_of vm (p_notional p) (v_spread (vc vm)) + fee_of vm (p_notional p) (v_toll (vc vm))).
Proof.
  intros H p Hp Hc HD Ht1 Ht2 Ht3 Ht4 Ht5 Hnone.
  destruct (close_position_tx_whole _ _ _ _ _ _ _ H Hnone)
    as (tk & vm & vm' & o & wr & wm & fm & Hbal & Hvm & Hsw & Ho & Hr & Hget & Hnp & _ & Hfm0 & Hfm & Hflow).
  fold p in Hsw, Hr, Hget, Hfm. cbv zeta in Hr, Hget, Hfm. exists vm, vm', o. split; [exact Hvm|]. split; [exact Hsw|]. cbv zeta.
  match type of Hr with close_position_reply ?W _ _ = _ => set (ws := W) in * end.
  pose proof (close_position_reply_spec ws (sval (p_size p)) o wr (wm ++ fm) _ eq_refl) as Hspec. cbv zeta in Hspec.
  cbn [ts_vamm ts_trader ts_side ts_open_notional ts_upnl] in Hspec. rewrite Hget in Hspec.
  destruct (Hspec Hp Hc HD Ho ltac:(apply Hp) eq_refl Ht4 Ht5 Hr) as (Heq & Htr & _). clear Hspec.
  change (funding_owed ws v p) with (funding_owed w v p) in Heq, Htr. split; [exact Heq|].
  rewrite transfers_to_app, (Hfm0 t Ht4 Ht5) in Htr.
  rewrite Hflow, flow_app, Hfm, flow_no_pulls, Hbal by assumption. unfold ind. rewrite Z.eqb_refl.
  destruct (Z.eqb_spec t A_ENGINE) as [|_]; [contradiction|].
  destruct (Z.eqb_spec t (e_ifund (ec (w_eng w)))) as [|_]; [contradiction|].
  destruct (Z.eqb_spec t (e_feepool (ec (w_eng w)))) as [|_]; [contradiction|].
  destruct (t_native (w_tok w)); [destruct (Z.eqb_spec t A_ENGINE); [contradiction|]|rewrite Z.eqb_refl]; lia.
Qed.
