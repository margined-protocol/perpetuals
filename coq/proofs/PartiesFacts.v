(* C03, second clause: an engine transaction changes the balance of no account other than its sender, the
   engine, the insurance fund and the fee pool. *)
From MP.Model Require Import Prelude U128 SInt Feed Vamm VammOps Token World Engine Runtime.
From MP.Proofs Require Import Tactics RuntimeFacts HandlerFacts LedgerFacts MirrorFacts.

(* an invariant I, a predicate Q on messages and a predicate S on the contracts that execute them: if a
   Q-message executed by an S-contract keeps I, the fund's own transfer to its beneficiary is a Q-message, and
   every reply to a Q-message keeps I and emits only Q-messages, then dispatching a list of Q-messages keeps I *)
Lemma dispatched_inv2 (I : world -> Prop) (Q : submsg -> Prop) (S : addr -> Prop) :
  S A_IFUND ->
  (forall w c s w' ev, S c -> Q s -> exec_simple w c (sm_msg s) = Ok (w', ev) -> I w -> I w') ->
  (forall w amt, I w -> Q (mkSub (MTransfer (if_engine (w_if w)) amt) 0 RNever)) ->
  (forall w c s ev w' subs, Q s -> wants_ok (sm_reply s) = true ->
     contract_reply w c (sm_id s) (Ok ev) = Ok (w', subs) -> I w -> I w' /\ Forall Q subs) ->
  forall f w n c subs w' n', dispatched f w n c subs w' n' -> S c -> I w -> Forall Q subs -> I w'.
Proof.
  intros HSI Hs Hi Hr f w n c subs w' n' H.
  assert (Hrun : forall w n c s w1 n1 ev, runs f w n c (sm_msg s) w1 n1 ev -> S c -> Q s -> I w -> I w1).
  { intros w0 n0 c0 s w1 n1 ev Hx Sc Qs Pw. inversion Hx; subst; [eapply Hs; eauto|].
    eapply (Hs _ _ (mkSub _ 0 RNever)); [exact HSI|apply Hi; exact Pw|eassumption|exact Pw]. }
  induction H as [|? ? ? s ? ? ? ? ? ? ? Hx|? ? ? s ? ? ? ? ? ? ? ? ? ? ? Hx Hw Hc]; intros Sc Pw HQ; [exact Pw| |];
    inversion HQ as [|? ? Qs Qrest]; subst; specialize (Hrun _ _ _ _ _ _ _ Hx Sc Qs Pw).
  - auto.
  - destruct (Hr _ _ _ _ _ _ Qs Hw Hc Hrun) as [P2 Q2]. auto.
Qed.

Lemma dispatch_inv2 (I : world -> Prop) (Q : submsg -> Prop) (S : addr -> Prop) :
  S A_IFUND ->
  (forall w sender s w' ev, S sender -> Q s -> exec_simple w sender (sm_msg s) = Ok (w', ev) -> I w -> I w') ->
  (forall w sender amt w' subs, if_withdraw w sender amt = Ok (w', subs) -> I w -> I w' /\ Forall Q subs) ->
  (forall w sender s r w' subs, Q s -> contract_reply w sender (sm_id s) r = Ok (w', subs) ->
     (forall ev, r = Ok ev -> wants_ok (sm_reply s) = true) -> I w -> I w' /\ Forall Q subs) ->
  forall fuel f w n sender subs w' n',
    dispatch fuel f w n sender subs = Ok (w', n') -> S sender -> I w -> Forall Q subs -> I w'.
Proof.
  intros HSI Hs Hi Hr fuel f w n sender subs w' n' H. apply dispatch_dispatched in H. revert H.
  apply dispatched_inv2; [exact HSI|exact Hs| |].
  - intros w0 amt Pw.
    assert (Hw : if_withdraw w0 (if_engine (w_if w0)) amt = Ok (w0, [mkSub (MTransfer (if_engine (w_if w0)) amt) 0 RNever]))
      by (unfold if_withdraw; rewrite Z.eqb_refl; reflexivity).
    destruct (Hi _ _ _ _ _ Hw Pw) as [_ HQ]. inversion HQ; assumption.
  - intros w0 c s ev w1 sb Qs Hw Hc. eapply Hr; [exact Qs|exact Hc|]. intros _ _. exact Hw.
Qed.

Definition avoids (a : addr) (s : submsg) : Prop :=
  match sm_msg s with
  | MTransfer to _ => to <> a
  | MTransferFrom owner to _ => owner <> a /\ to <> a
  | _ => True
  end.

Lemma avoids_transfer a r x : r <> a -> avoids a (execute_transfer r x).
Proof. intros H. exact H. Qed.
Lemma avoids_transfer_from a w o r x : o <> a -> r <> a -> avoids a (execute_transfer_from w o r x).
Proof. intros H1 H2. unfold execute_transfer_from, avoids. destruct (t_native (w_tok w)); cbn [sm_msg]; auto. Qed.
Lemma avoids_ifw a w x : avoids a (execute_insurance_fund_withdrawal w x).
Proof. exact Logic.I. Qed.
Lemma avoids_to_if a w x : e_ifund (ec (w_eng w)) <> a -> avoids a (execute_transfer_to_insurance_fund w x).
Proof. intros H. exact H. Qed.

Global Hint Resolve avoids_transfer avoids_transfer_from avoids_ifw avoids_to_if : av.
(* a swap avoids every account *)
Global Hint Extern 1 (avoids _ _) => exact Logic.I : av.

Ltac avoid_goal := msgs_goal ltac:(auto with av).

(* the engine-state side of "a is not a party".  liq = true: a liquidation is in flight; the record of the trade then names the liquidated trader, who is
   paid nothing by the liquidation arms, so nothing is required of it *)
Definition outsider (liq : bool) (a : addr) (w : world) : Prop :=
  e_ifund (ec (w_eng w)) <> a /\ e_feepool (ec (w_eng w)) <> a /\ if_engine (w_if w) <> a /\
  (liq = false -> forall tm, e_tmp (w_eng w) = Some tm -> ts_trader tm <> a) /\
  (forall l, e_liq (w_eng w) = Some l -> l <> a).

(* what is sent while a is no party: it avoids a, and during a liquidation only the liquidation replies are awaited *)
Definition qmsg (liq : bool) (a : addr) (s : submsg) : Prop :=
  avoids a s /\ (liq = true -> wants_ok (sm_reply s) = true -> sm_id s = LIQUIDATION_ID \/ sm_id s = PARTIAL_LIQUIDATION_ID).

Lemma qmsg_leaf liq a s : avoids a s -> wants_ok (sm_reply s) = false -> qmsg liq a s.
Proof. intros H1 H2. split; [exact H1|]. intros _ H3. rewrite H2 in H3. discriminate. Qed.

Lemma Forall_qmsg liq a msgs : Forall (avoids a) msgs -> (liq = true -> Forall leafy msgs) -> Forall (qmsg liq a) msgs.
Proof.
  intros H1 H2. rewrite Forall_forall in H1 |- *. intros s Hs. split; [exact (H1 s Hs)|].
  intros Hq Hw. specialize (H2 Hq). rewrite Forall_forall in H2. destruct (H2 s Hs) as [Hn _]. congruence.
Qed.

(* `outsider` of a world whose engine record is setters over one where a is an outsider *)
Ltac out_goal :=
  unfold outsider;
  cbn [w_eng set_eng set_vamm w_if ec e_tmp e_liq eng_set_state eng_set_tmp eng_set_sent eng_set_liq eng_set_vmap
       store_position remove_position enter_restriction_mode];
  repeat split; auto; intros; try congruence;
  try (match goal with Hq : Some _ = Some _ |- _ => injection Hq as <- end; cbn; auto).

Lemma need_tmp_some w tm : need_tmp w = Ok tm -> e_tmp (w_eng w) = Some tm.
Proof. unfold need_tmp. destruct (e_tmp (w_eng w)); intros H; inv_ok; reflexivity. Qed.
Lemma need_liq_some w l : need_liq w = Ok l -> e_liq (w_eng w) = Some l.
Proof. unfold need_liq. destruct (e_liq (w_eng w)); intros H; inv_ok; reflexivity. Qed.

Lemma contract_reply_out liq a w c id ev w' subs :
  contract_reply w c id (Ok ev) = Ok (w', subs) -> outsider liq a w -> A_ENGINE <> a ->
  (liq = true -> id = LIQUIDATION_ID \/ id = PARTIAL_LIQUIDATION_ID) ->
  outsider liq a w' /\ Forall (qmsg liq a) subs.
Proof.
  intros H (Hi & Hp & Hie & Ht & Hl) Hen Hmode.
  unfold contract_reply, engine_reply in H. destruct (c =? A_ENGINE); [|discriminate].
  destruct ev; try discriminate H; repeat (destr_if_in H; [|try discriminate H]); zb; subst id.
  (* what the two liquidation replies emit is not replied to; the other replies do not run in a liquidation *)
  all: lazymatch type of H with
       | liquidate_reply _ _ _ = _ => pose proof (liquidate_reply_leafy _ _ _ _ _ H) as Hlf
       | partial_liquidation_reply _ _ _ = _ => pose proof (partial_liquidation_reply_leafy _ _ _ _ _ H) as Hlf
       | _ => assert (Hq : liq = false) by (destruct liq; [destruct (Hmode eq_refl); discriminate|reflexivity]);
              specialize (Ht Hq)
       end.
  all: enough (Forall (avoids a) subs /\ outsider liq a w') as [Hav Ho]
         by (split; [exact Ho|apply Forall_qmsg; [exact Hav|intros Hc; first [exact Hlf|congruence]]]).
  all: unfold update_position_reply, reverse_position_reply, close_position_reply, partial_close_position_reply,
         liquidate_reply, partial_liquidation_reply, pay_funding_reply in H.
  all: arm H; try apply need_tmp_some in Hx; try apply need_liq_some in Hx0.
  all: try match goal with Ha : append_cumulative_premium_fraction _ _ _ = Ok _ |- _ => apply append_cpf_vmap in Ha as [m ->] end.
  (* every message goes to the fund, the fee pool, the recorded trader or the liquidator, none of which is a;
     the new engine record is setters over the old one that keep or clear the recorded trade and the liquidator *)
  all: split; [avoid_goal|out_goal].
Qed.

Definition iout (liq : bool) (a : addr) (B : Z) (w : world) : Prop := bal (w_tok w) a = B /\ outsider liq a w.

Lemma iout_exec liq a B w c s w' ev :
  c <> a -> qmsg liq a s -> exec_simple w c (sm_msg s) = Ok (w', ev) -> iout liq a B w -> iout liq a B w'.
Proof.
  intros Hca [Hav _] Hex [Hb Ho]. split.
  - rewrite <- Hb. unfold avoids in Hav. unfold exec_simple in Hex. destruct (sm_msg s); minv Hex; inv_ok; cbn [w_tok set_vamm set_tok]; try reflexivity.
    + match goal with Hx : tok_move _ _ _ _ = Ok _ |- _ => apply (tok_move_frame _ _ _ _ _ a Hx); congruence end.
    + destruct Hav. match goal with Hx : tok_move_from _ _ _ _ _ = Ok _ |- _ => apply (tok_move_from_frame _ _ _ _ _ _ a Hx); congruence end.
  - unfold outsider in *. rewrite (exec_simple_eng _ _ _ _ _ Hex), (exec_simple_if _ _ _ _ _ Hex). exact Ho.
Qed.

Lemma dispatched_iout liq a B f w n subs w' n' :
  dispatched f w n A_ENGINE subs w' n' -> A_ENGINE <> a -> A_IFUND <> a ->
  iout liq a B w -> Forall (qmsg liq a) subs -> iout liq a B w'.
Proof.
  intros H He Hi Hio Hq.
  eapply (dispatched_inv2 (iout liq a B) (qmsg liq a) (fun c => c <> a)); [exact Hi| | | |exact H|exact He|exact Hio|exact Hq].
  - intros w0 c s w1 ev. apply iout_exec.
  - intros w0 amt [_ (_ & _ & Hie & _)]. apply qmsg_leaf; [exact Hie|reflexivity].
  - intros w0 c s ev w1 sb [_ Hq0] Hwo Hx [Hb Ho].
    destruct (contract_reply_out liq a _ _ _ _ _ _ Hx Ho He (fun Hl => Hq0 Hl Hwo)) as [Ho' Hq'].
    split; [split; [rewrite (contract_reply_tok _ _ _ _ _ _ Hx); exact Hb|exact Ho']|exact Hq'].
Qed.

Definition is_liquidate (m : emsg) : bool := match m with ELiquidate _ _ _ => true | _ => false end.
Lemma engine_execute_out a w s m funds w1 subs :
  engine_execute w s m funds = Ok (w1, subs) ->
  e_tmp (w_eng w) = None -> e_liq (w_eng w) = None ->
  s <> a -> A_ENGINE <> a -> if_engine (w_if w) <> a -> e_ifund (ec (w_eng w)) <> a -> e_feepool (ec (w_eng w)) <> a ->
  subs = [] \/ (outsider (is_liquidate m) a w1 /\ Forall (qmsg (is_liquidate m) a) subs).
Proof.
  intros H Htmp Hliq Hs He Hie Hif Hfp. unfold engine_execute in H.
  destruct m; cbn [is_liquidate];
    [unfold e_update_config in H|unfold e_update_pauser in H|unfold e_add_whitelist in H|unfold e_remove_whitelist in H
    |unfold e_open_position in H|unfold e_close_position, internal_close_position in H
    |unfold e_liquidate, internal_close_position in H|unfold e_pay_funding in H|unfold e_deposit_margin in H
    |unfold e_withdraw_margin in H|unfold e_set_pause in H]; arm H; auto.
  all: try match goal with Hp : partial_liquidation _ _ _ _ = Ok _ |- _ => unfold partial_liquidation in Hp; arm Hp end.
  (* an arm that sends something records its sender, who is not a, as the trader or the liquidator of the pending trade *)
  all: right; split; [out_goal|].
  all: first [ apply Forall_qmsg; [avoid_goal|discriminate]
             | constructor; [split; [exact Logic.I|intros _ _; cbn; auto]|constructor] ].
Qed.

