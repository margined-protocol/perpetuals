(* Liquidate: the execute arm's guards and what the full-liquidation reply stores and sends (C06, C07, C14). *)
From MP.Model Require Import Prelude U128 SInt Feed Vamm VammOps Token World Engine Runtime.
From MP.Proofs Require Import Tactics MapFacts CloseFacts FrameFacts.

(* the margin ratio as defined for liquidation: the spot/TWAP ratio, replaced by the
   oracle-priced ratio when the vAMM price is >= 10% away from the oracle and that ratio is higher *)
Definition liq_ratio (w : world) (v t : addr) : res sint :=
  do mr0 <- query_margin_ratio w v t;
  do vm <- get_vamm w v;
  do over <- q_is_over_spread_limit vm (oracle_of w vm);
  if over then
    do omr <- margin_ratio_calc_option w v t POracle;
    do d <- schecked_sub omr mr0;
    Ok (if sgtb d szero then omr else mr0)
  else Ok mr0.

Definition with_liquidator (w : world) (s : addr) : world := set_eng w (eng_set_liq (w_eng w) (Some s)).

Lemma liquidate_only_if w s v t lim r :
  e_liquidate w s v t lim = Ok r ->
  exists mr, liq_ratio (with_liquidator w s) v t = Ok mr /\
             sgtb mr (spos (e_maint (ec (w_eng w)))) = false /\
             sval (p_size (read_position (w_eng w) v t)) <> 0 /\
             require_vamm (with_liquidator w s) v = Ok tt.
Proof.
  unfold e_liquidate, liq_ratio. fold (with_liquidator w s). intros H. arm H.
  all: cbn [bind]; match goal with Ho : q_is_over_spread_limit _ _ = Ok _ |- _ => rewrite Ho end; cbn [bind].
  all: match goal with Hi : require_insufficient_margin _ _ = Ok _ |- _ => unfold require_insufficient_margin in Hi; minv Hi end.
  all: zb; eexists; split; [eassumption|]; split; [assumption|]; split; [assumption|]; match goal with |- Ok ?u = _ => destruct u; reflexivity end.
Qed.

(* the reply's state and messages: a draw on the insurance fund for newly realised bad debt (if any), what is left of
   the margin to the insurance fund (if any), the liquidator's half of the penalty (if any) *)
Lemma liquidate_reply_sends w i o w' msgs swap liquidator :
  e_tmp (w_eng w) = Some swap -> e_liq (w_eng w) = Some liquidator ->
  liquidate_reply w i o = Ok (w', msgs) ->
  let c := ec (w_eng w) in
  exists e' draw margin pay fee,
    w' = set_eng w (enter_restriction_mode e' (ts_vamm swap) (height (w_env w))) /\
    find_position e' (ts_vamm swap) (ts_trader swap) = None /\
    msgs = draw ++ (if negb (margin =? 0) then [execute_transfer (e_ifund c) margin] else []) ++ pay /\
    (draw = [] \/ exists d, draw = [execute_insurance_fund_withdrawal w d]) /\
    fee = o * e_liqfee c / e_dec c / 2 /\
    (fee = 0 /\ pay = [] \/ exists st pre st', withdraw w st liquidator fee pre = Ok (st', pay)).
Proof.
  intros Htmp Hliq H c. unfold liquidate_reply, need_tmp, need_liq in H. rewrite Htmp, Hliq in H. cbn [bind] in H. arm H.
  arith_ok. subst. do 5 eexists. split; [reflexivity|]. split.
  { rewrite find_set_liq, find_set_tmp, find_set_state. unfold find_position, positions_of, remove_position; cbn [e_pos].
    rewrite zfind_zset_same. apply zfind_zdel_same. }
  split; [reflexivity|]. split; [|split; [reflexivity|]].
  - match goal with Hr : (if negb _ then realize_bad_debt _ _ _ else _) = Ok _ |- _ => unfold realize_bad_debt in Hr; minv Hr; inv_ok; eauto end.
  - match goal with Hw : (if negb _ then withdraw _ _ _ _ _ else _) = Ok _ |- _ => minv Hw; inv_ok; zb; eauto 6 end.
Qed.

Lemma liquidate_reply_spec w i o w' msgs swap liquidator :
  e_tmp (w_eng w) = Some swap -> e_liq (w_eng w) = Some liquidator ->
  let v := ts_vamm swap in let t := ts_trader swap in
  liquidator <> e_ifund (ec (w_eng w)) ->
  liquidate_reply w i o = Ok (w', msgs) ->
  let fee := o * e_liqfee (ec (w_eng w)) / e_dec (ec (w_eng w)) / 2 in
  transfers_to liquidator msgs = fee /\
  (t <> liquidator -> t <> e_ifund (ec (w_eng w)) -> transfers_to t msgs = 0) /\
  find_position (w_eng w') v t = None /\
  vm_lrb (read_vmap (w_eng w') v) = height (w_env w) /\
  w_tok w' = w_tok w /\ w_vamms w' = w_vamms w.
Proof.
  intros Htmp Hliq v t Hne H.
  destruct (liquidate_reply_sends _ _ _ _ _ _ _ Htmp Hliq H) as (e' & draw & margin & pay & fee0 & -> & Hnone & -> & Hdraw & -> & Hpay).
  assert (Hd : forall a, transfers_to a draw = 0) by (intros a; destruct Hdraw as [->|[d ->]]; reflexivity).
  assert (Hm : forall a, a <> e_ifund (ec (w_eng w)) ->
            transfers_to a (if negb (margin =? 0) then [execute_transfer (e_ifund (ec (w_eng w))) margin] else []) = 0).
  { intros a Ha. destruct (negb (margin =? 0)); [|reflexivity]. cbn [transfers_to sm_msg execute_transfer].
    destruct (Z.eqb_spec (e_ifund (ec (w_eng w))) a); [congruence|reflexivity]. }
  assert (Hp : forall a, transfers_to a pay = if liquidator =? a then o * e_liqfee (ec (w_eng w)) / e_dec (ec (w_eng w)) / 2 else 0).
  { intros a. destruct Hpay as [[-> ->]|(st & pre & st' & Hw)]; [destr_if; reflexivity|exact (transfers_to_withdraw _ _ _ _ _ _ _ a Hw)]. }
  cbv zeta. rewrite !transfers_to_app, Hd, Hp, Z.eqb_refl, (Hm _ Hne). repeat split; try lia.
  - intros Htl Hti. rewrite Hd, Hp, (Hm _ Hti). destruct (Z.eqb_spec liquidator t); [congruence|reflexivity].
  - cbn [w_eng set_eng]. rewrite find_enter. exact Hnone.
  - unfold read_vmap, enter_restriction_mode, eng_set_vmap; cbn [e_vmap w_eng set_eng]. rewrite zfind_zset_same. reflexivity.
Qed.
