(* C07, the positive direction: a full liquidation goes through.  The execute arm accepts whenever the guards the
   property names hold; the reply never fails for a reason that depends on how far under water the position is
   (margins saturate at zero and the deficit becomes bad debt); only 128-bit overflow is excluded, by one explicit
   range hypothesis. *)
From MP.Model Require Import Prelude U128 SInt Feed Vamm VammOps Token World Engine Runtime.
From MP.Proofs Require Import Tactics SIntFacts EngineArith LiqFacts LedgerFacts.

Lemma ok_with {A} (r : res A) (P : A -> Prop) :
  (forall x, r = Ok x -> P x) -> ~ (exists e, r = Err e) -> exists x, r = Ok x /\ P x.
Proof. destruct r as [x|e]; intros H N; [eauto|]. destruct N. eauto. Qed.

Lemma sadd_live a b : wf a -> wf b -> Z.abs (toZ a + toZ b) < MAXU ->
  exists r, sadd a b = Ok r /\ toZ r = toZ a + toZ b /\ wf r.
Proof.
  intros Ha Hb H. apply ok_with; [intros r E; apply sadd_toZ in E; tauto|].
  rewrite sadd_err_iff by assumption. lia.
Qed.
Lemma ssub_live a b : wf a -> wf b -> Z.abs (toZ a - toZ b) < MAXU ->
  exists r, ssub a b = Ok r /\ toZ r = toZ a - toZ b /\ wf r.
Proof.
  intros Ha Hb H. apply ok_with; [intros r E; apply ssub_toZ in E; tauto|].
  rewrite ssub_err_iff by assumption. lia.
Qed.
Lemma smul_live a b : wf a -> wf b -> Z.abs (toZ a * toZ b) < MAXU ->
  exists r, smul a b = Ok r /\ toZ r = toZ a * toZ b /\ wf r.
Proof.
  intros Ha Hb H. apply ok_with; [intros r E; apply smul_toZ in E; tauto|].
  rewrite smul_err_iff by assumption. lia.
Qed.
Lemma sdiv_live a b : wf a -> wf b -> toZ b <> 0 ->
  exists r, sdiv a b = Ok r /\ toZ r = Z.quot (toZ a) (toZ b) /\ wf r.
Proof.
  intros Ha Hb H. apply ok_with; [intros r E; apply sdiv_toZ in E; tauto|].
  rewrite sdiv_err_iff. exact H.
Qed.

Lemma wf_of a : wf0 a -> sval a < MAXU -> wf a.
Proof. unfold wf, wf0. lia. Qed.
Lemma wf_spos x : 0 <= x < MAXU -> wf (spos x).
Proof. intros H. exact H. Qed.

Lemma div_le_self a d : 0 <= a -> 0 < d -> 0 <= a / d <= a.
Proof. intros Ha Hd. split; [apply Z.div_pos; lia|apply Z.div_le_upper_bound; nia]. Qed.

Lemma calc_remain_margin_live w v p delta :
  pos_wf p -> cpf_wf (w_eng w) v -> wf delta -> 0 < e_dec (ec (w_eng w)) ->
  let lat := cumulative_premium_fraction (w_eng w) v in
  sval lat < MAXU -> sval (p_lupf p) < MAXU -> sval (p_size p) < MAXU -> e_dec (ec (w_eng w)) < MAXU ->
  Z.abs (toZ lat - toZ (p_lupf p)) < MAXU ->
  Z.abs ((toZ lat - toZ (p_lupf p)) * toZ (p_size p)) + Z.abs (toZ delta) + p_margin p < MAXU ->
  let r := toZ delta - funding_owed w v p + p_margin p in
  exists fp, calc_remain_margin w v p delta = Ok (fp, Z.max 0 r, Z.max 0 (- r), lat).
Proof.
  intros Hp Hc Hd HD lat B1 B2 B3 B4 R1 R2 r.
  assert (exists x, calc_remain_margin w v p delta = Ok x) as ([[[fp m] bd] lt] & E).
  { destruct Hp as (Hs & Hl & Hm & _). unfold calc_remain_margin. cbv zeta. fold lat. unfold cpf_wf in Hc. fold lat in Hc.
    destruct (ssub_live lat (p_lupf p)) as (d & -> & Z1 & W1); [apply wf_of; assumption..|exact R1|]. cbn [bind].
    destruct (smul_live d (p_size p)) as (m & -> & Z2 & W2); [exact W1|apply wf_of; assumption|rewrite Z1; lia|]. cbn [bind].
    destruct (sdiv_live m (spos (e_dec (ec (w_eng w))))) as (fp & -> & Z3 & W3);
      [exact W2|apply wf_spos; lia|rewrite toZ_spos; lia|]. cbn [bind].
    assert (Hfp : Z.abs (toZ fp) <= Z.abs ((toZ lat - toZ (p_lupf p)) * toZ (p_size p))).
    { rewrite Z3, Z2, Z1, toZ_spos. apply quot_abs_le. }
    destruct (ssub_live delta fp) as (r1 & -> & Z4 & W4); [exact Hd|exact W3|lia|]. cbn [bind].
    destruct (sadd_live r1 (spos (p_margin p))) as (rem & -> & _); [exact W4|apply wf_spos; lia|rewrite toZ_spos; lia|]. cbn [bind].
    destruct (s_is_negative rem); eauto. }
  destruct (calc_remain_margin_spec _ _ _ _ _ _ _ _ Hp Hc (wf_wf0 _ Hd) HD E) as (-> & _ & Hneg & Hpos & _).
  fold r in Hneg, Hpos. exists fp. rewrite E. replace (Z.max 0 r) with m by lia. replace (Z.max 0 (- r)) with bd by lia.
  reflexivity.
Qed.

Lemma liquidate_execute_live w s v t lim mr :
  let wl := with_liquidator w s in
  let c := ec (w_eng w) in
  liq_ratio wl v t = Ok mr ->
  require_vamm wl v = Ok tt ->
  sgtb mr (spos (e_maint c)) = false ->
  sval (p_size (read_position (w_eng w) v t)) <> 0 ->
  (e_liqfee c <? sval mr) && negb (e_plr c =? 0) = false ->
  e_liquidate w s v t lim =
    Ok (fst (internal_close_position wl v t (read_position (w_eng w) v t) lim LIQUIDATION_ID),
        [snd (internal_close_position wl v t (read_position (w_eng w) v t) lim LIQUIDATION_ID)]).
Proof.
  intros wl c Hr Hv Hm Hs Hfull. subst wl c. unfold e_liquidate. unfold with_liquidator, liq_ratio in *. cbv zeta.
  (* once its three queries have answered, what is left of liq_ratio is the fourth bind of e_liquidate *)
  destruct (query_margin_ratio _ v t) as [mr0|]; [|discriminate]. cbn [bind] in *.
  destruct (get_vamm _ v) as [vm|]; [|discriminate]. cbn [bind] in *.
  destruct (q_is_over_spread_limit vm _) as [over|]; [|discriminate]. cbn [bind] in *.
  rewrite Hr. cbn [bind]. rewrite Hv. cbn [bind]. unfold require_insufficient_margin. rewrite Hm. cbn [negb bind].
  change (read_position (w_eng (set_eng w (eng_set_liq (w_eng w) (Some s)))) v t) with (read_position (w_eng w) v t).
  destruct (Z.eqb_spec (sval (p_size (read_position (w_eng w) v t))) 0) as [E|E]; [contradiction|]. cbn [negb].
  rewrite Hfull. destruct (internal_close_position _ v t _ lim LIQUIDATION_ID). reflexivity.
Qed.

Lemma cadd_live a b : a + b < MAXU -> cadd a b = Ok (a + b).
Proof. intros H. unfold cadd. destruct (a + b <? MAXU) eqn:E; [reflexivity|zb; lia]. Qed.
Lemma csub_live a b : b <= a -> csub a b = Ok (a - b).
Proof. intros H. unfold csub. destruct (b <=? a) eqn:E; [reflexivity|zb; lia]. Qed.
Lemma cmul_live a b : a * b < MAXU -> cmul a b = Ok (a * b).
Proof. intros H. unfold cmul. destruct (a * b <? MAXU) eqn:E; [reflexivity|zb; lia]. Qed.
Lemma cdiv_live a b : b <> 0 -> cdiv a b = Ok (a / b).
Proof. intros H. unfold cdiv. destruct (b =? 0) eqn:E; [zb; contradiction|reflexivity]. Qed.

(* the engine emits a message for a nonzero amount only *)
Definition nz (x : Z) (m : submsg) : list submsg := if x =? 0 then [] else [m].

Lemma nz_length x m : (length (nz x m) <= 1)%nat.
Proof. unfold nz. destruct (x =? 0); cbn [length]; lia. Qed.
Lemma nz_negb x m : (if negb (x =? 0) then [m] else []) = nz x m.
Proof. unfold nz. destruct (x =? 0); reflexivity. Qed.

Lemma realize_bad_debt_live w st bd :
  let pre := Z.max 0 (bd - e_bad_debt st) in
  realize_bad_debt w st bd =
    Ok (nz pre (execute_insurance_fund_withdrawal w pre), mkEstate (e_oi st) (e_bad_debt st - bd + pre) (e_pause st), pre).
Proof.
  cbv zeta. unfold realize_bad_debt. destruct (Z.leb_spec bd (e_bad_debt st)); rewrite csub_live by lia; cbn [bind].
  - rewrite Z.max_l, Z.add_0_r by lia. reflexivity.
  - rewrite Z.max_r by lia. unfold nz. destruct (Z.eqb_spec (bd - e_bad_debt st) 0); [lia|].
    replace (e_bad_debt st - bd + (bd - e_bad_debt st)) with 0 by lia. reflexivity.
Qed.

Lemma withdraw_live w st r amt pre :
  let sf := Z.max 0 (amt - (engine_balance w + pre)) in
  engine_balance w + pre < MAXU -> e_bad_debt st + sf < MAXU ->
  exists st', withdraw w st r amt pre = Ok (st', nz sf (execute_insurance_fund_withdrawal w sf) ++ [execute_transfer r amt]).
Proof.
  cbv zeta. intros Ha Hb. unfold withdraw. rewrite cadd_live by assumption. cbn [bind].
  destruct (Z.ltb_spec (engine_balance w + pre) amt).
  - rewrite Z.max_r in * by lia. rewrite csub_live by lia. cbn [bind]. rewrite cadd_live by assumption. cbn [bind].
    unfold nz. destruct (Z.eqb_spec (amt - (engine_balance w + pre)) 0); [lia|]. eexists. reflexivity.
  - rewrite Z.max_l by lia. eexists. reflexivity.
Qed.

Lemma margin_delta_live d on o :
  0 <= on < MAXU -> 0 <= o < MAXU ->
  exists md, match d with
             | RemoveFromAmm => ssub (spos on) (spos o)
             | AddToAmm => ssub (spos o) (spos on)
             end = Ok md /\
             toZ md = match d with AddToAmm => o - on | RemoveFromAmm => on - o end /\ wf md.
Proof.
  intros Hn Ho. pose proof (ssub_live (spos o) (spos on) (wf_spos _ Ho) (wf_spos _ Hn)) as H1.
  pose proof (ssub_live (spos on) (spos o) (wf_spos _ Hn) (wf_spos _ Ho)) as H2.
  rewrite !toZ_spos in *. destruct d; [apply H1|apply H2]; lia.
Qed.

(* the fee comes out of the margin left; what the margin does not cover is added to the bad debt *)
Lemma fee_from_margin r fee : 0 <= fee -> Z.abs r + fee < MAXU ->
  (if Z.max 0 r <? fee
   then do bd <- csub fee (Z.max 0 r); do bd' <- cadd (Z.max 0 (- r)) bd; Ok (0, bd')
   else do m <- csub (Z.max 0 r) fee; Ok (m, Z.max 0 (- r))) = Ok (Z.max 0 (r - fee), Z.max 0 (fee - r)).
Proof.
  intros Hf Hr. destruct (Z.ltb_spec (Z.max 0 r) fee).
  - rewrite csub_live by lia. cbn [bind]. rewrite cadd_live by lia. cbn [bind]. do 2 f_equal; lia.
  - rewrite csub_live by lia. cbn [bind]. do 2 f_equal; lia.
Qed.

(* what the trader's position is worth to them at the quote `o` the closing swap returned: margin + realised PnL - funding *)
Definition liq_equity (w : world) (v : addr) (p : position) (on o : Z) : Z :=
  (match p_dir p with AddToAmm => o - on | RemoveFromAmm => on - o end) - funding_owed w v p + p_margin p.

(* what the range hypotheses add up bounds the equity, and the liquidator's fee is at most o * liqfee *)
Lemma liq_bounds w v p on o lf dec :
  pos_wf p -> 0 <= on -> 0 <= o -> 0 <= lf -> 0 < dec ->
  Z.abs (liq_equity w v p on o) <=
    Z.abs ((toZ (cumulative_premium_fraction (w_eng w) v) - toZ (p_lupf p)) * toZ (p_size p)) + on + o + p_margin p /\
  0 <= o * lf / dec / 2 <= o * lf.
Proof.
  intros (_ & _ & Hm & _) Hn Ho Hl Hd. split.
  - unfold liq_equity. pose proof (quot_abs_le _ _ : Z.abs (funding_owed w v p) <= _) as H. destruct (p_dir p); lia.
  - pose proof (div_le_self _ _ (Z.mul_nonneg_nonneg _ _ Ho Hl) Hd) as H. pose proof (div_le_self _ 2 (proj1 H) eq_refl). lia.
Qed.

(* at most four messages: the fund covers the bad debt beyond what the engine has recorded, the fund receives the margin
   left after the fee, the fund covers what the vault lacks for the fee, the liquidator receives the fee *)
Lemma liquidate_reply_msgs w i o swap liq p :
  e_tmp (w_eng w) = Some swap -> e_liq (w_eng w) = Some liq ->
  let c := ec (w_eng w) in let st := es (w_eng w) in let v := ts_vamm swap in
  get_position (w_eng w) (w_env w) v (ts_trader swap) (ts_side swap) = p ->
  let lat := cumulative_premium_fraction (w_eng w) v in
  pos_wf p -> cpf_wf (w_eng w) v -> 0 < e_dec c -> 0 <= o -> 0 <= ts_open_notional swap -> 0 <= e_liqfee c ->
  0 <= e_bad_debt st -> 0 <= engine_balance w ->
  sval lat < MAXU -> sval (p_lupf p) < MAXU -> sval (p_size p) < MAXU -> e_dec c < MAXU ->
  Z.abs (toZ lat - toZ (p_lupf p)) < MAXU ->
  Z.abs ((toZ lat - toZ (p_lupf p)) * toZ (p_size p)) + ts_open_notional swap + o + p_margin p + o * e_liqfee c
    + e_bad_debt st + engine_balance w < MAXU ->
  let r := liq_equity w v p (ts_open_notional swap) o in
  let fee := o * e_liqfee c / e_dec c / 2 in
  let pre := Z.max 0 (Z.max 0 (fee - r) - e_bad_debt st) in
  let sf := Z.max 0 (fee - (engine_balance w + pre)) in
  exists e', liquidate_reply w i o =
    Ok (set_eng w e',
        nz pre (execute_insurance_fund_withdrawal w pre) ++ nz (Z.max 0 (r - fee)) (execute_transfer (e_ifund c) (Z.max 0 (r - fee))) ++
        nz sf (execute_insurance_fund_withdrawal w sf) ++ nz fee (execute_transfer liq fee)).
Proof.
  intros Htmp Hliq c st v Hgp lat Hp Hc HD Ho Hon Hlf Hbd Htb B1 B2 B3 B4 R1 R2 r fee pre sf.
  destruct (liq_bounds w v p _ o _ _ Hp Hon Ho Hlf HD) as [Br Bfee]. fold v lat r in Br. fold c fee in Bfee.
  assert (Hmg : 0 <= p_margin p) by apply Hp.
  assert (HB : Z.abs r + o * e_liqfee c + e_bad_debt st + engine_balance w < MAXU) by (clear - Br R2; lia).
  unfold liquidate_reply, need_tmp, need_liq. rewrite Htmp, Hliq. cbn [bind]. cbv zeta. fold c st v. rewrite Hgp.
  destruct (margin_delta_live (p_dir p) (ts_open_notional swap) o) as (md & -> & Zmd & Wmd);
    [clear - R2 Hon Ho Hmg Hbd Htb Bfee; lia..|]. cbn [bind].
  destruct (calc_remain_margin_live w v p md Hp Hc Wmd HD B1 B2 B3 B4 R1) as (fp & ->).
  { fold lat. rewrite Zmd. clear - R2 Hon Ho Hbd Htb Bfee. destruct (p_dir p); lia. }
  rewrite Zmd. fold (liq_equity w v p (ts_open_notional swap) o). fold r. cbn [bind]. cbv beta iota zeta.
  (* from here on only the sizes of the equity and of the fee matter *)
  clear - HB Bfee Hbd Htb HD.
  rewrite cmul_live by lia. cbn [bind]. rewrite cdiv_live by lia. cbn [bind]. rewrite cdiv_live by lia. cbn [bind]. fold fee.
  rewrite fee_from_margin by lia. cbn [bind]. cbv beta iota zeta.
  (* with no bad debt left nothing is drawn and the state stays as it is *)
  assert (exists st1, (if negb (Z.max 0 (fee - r) =? 0) then realize_bad_debt w st (Z.max 0 (fee - r)) else Ok ([], st, 0)) =
                      Ok (nz pre (execute_insurance_fund_withdrawal w pre), st1, pre) /\ 0 <= e_bad_debt st1 <= e_bad_debt st)
    as (st1 & -> & Hst1).
  { destruct (Z.eqb_spec (Z.max 0 (fee - r)) 0) as [E|E]; cbn [negb].
    - exists st. unfold pre. rewrite E, Z.max_l by lia. split; [reflexivity|lia].
    - rewrite realize_bad_debt_live. eexists. split; [reflexivity|]. cbn [e_bad_debt]. lia. }
  cbn [bind]. cbv beta iota zeta.
  assert (exists st2, (if negb (fee =? 0) then withdraw w st1 liq fee pre else Ok (st1, [])) =
                      Ok (st2, nz sf (execute_insurance_fund_withdrawal w sf) ++ nz fee (execute_transfer liq fee)))
    as (st2 & ->).
  { unfold nz at 2. destruct (Z.eqb_spec fee 0) as [E|E]; cbn [negb].
    - exists st1. unfold sf, pre. rewrite E, Z.max_l by lia. reflexivity.
    - apply withdraw_live; unfold sf, pre; lia. }
  cbn [bind]. cbv beta iota zeta. rewrite nz_negb. eexists. reflexivity.
Qed.

(* the engine's leaf messages (transfers out of the vault, draws on the insurance fund), run on the ledger alone *)
Fixpoint lrun (t : token) (msgs : list submsg) : res token :=
  match msgs with
  | [] => Ok t
  | s :: rest =>
      match sm_msg s, sm_reply s with
      | MTransfer to amt, RError => do t1 <- tok_move t A_ENGINE to amt; lrun t1 rest
      | MIfWithdraw target amt, RError =>
          check (target =? A_IFUND) else EDecode;
          do t1 <- tok_move t A_IFUND A_ENGINE amt; lrun t1 rest
      | _, _ => Err EDecode
      end
  end.

Lemma set_tok_same w : set_tok w (w_tok w) = w.
Proof. destruct w; reflexivity. Qed.

(* one transfer that nobody is told of *)
Lemma dispatch_transfer k f w n c s to amt t1 rest :
  n <> f -> sm_msg s = MTransfer to amt -> wants_ok (sm_reply s) = false -> tok_move (w_tok w) c to amt = Ok t1 ->
  dispatch (S k) f w n c (s :: rest) = dispatch k f (set_tok w t1) (n + 1) c rest.
Proof.
  intros Hn Em Er Et. cbn [dispatch]. destruct (Z.eqb_spec n f); [contradiction|].
  rewrite Em, Er. cbn [exec_simple]. rewrite Et. reflexivity.
Qed.

Lemma dispatch_lrun msgs : forall fuel f w n t',
  f < 0 -> 0 <= n -> if_engine (w_if w) = A_ENGINE ->
  lrun (w_tok w) msgs = Ok t' -> (length msgs + 3 <= fuel)%nat ->
  exists n', dispatch fuel f w n A_ENGINE msgs = Ok (set_tok w t', n') /\ n <= n'.
Proof.
  induction msgs as [|s rest IH]; intros fuel f w n t' Hf Hn Hie Hr Hfu.
  - destruct fuel as [|k]; [cbn in Hfu; lia|]. cbn [lrun] in Hr. injection Hr as <-. cbn [dispatch].
    rewrite set_tok_same. exists n. split; [reflexivity|lia].
  - destruct fuel as [|k]; cbn [length] in Hfu; [lia|]. cbn [lrun] in Hr.
    destruct (sm_msg s) as [| | | |to amt| |target amt] eqn:Em; try discriminate; destruct (sm_reply s) eqn:Er; try discriminate.
    + destruct (tok_move (w_tok w) A_ENGINE to amt) as [t1|] eqn:Et; [|discriminate]. cbn [bind] in Hr.
      rewrite (dispatch_transfer _ f w n A_ENGINE s to amt t1 rest ltac:(lia) Em ltac:(rewrite Er; reflexivity) Et).
      destruct (IH k f (set_tok w t1) (n + 1) t' Hf ltac:(lia) Hie Hr ltac:(lia)) as (n' & Hd & Hn').
      exists n'. split; [exact Hd|lia].
    + destruct (Z.eqb_spec target A_IFUND) as [->|]; [|discriminate].
      destruct (tok_move (w_tok w) A_IFUND A_ENGINE amt) as [t1|] eqn:Et; [|discriminate]. cbn [bind] in Hr.
      (* the fund answers with one transfer to the engine *)
      cbn [dispatch]. destruct (Z.eqb_spec n f); [lia|]. rewrite Em, Er, Z.eqb_refl. unfold if_withdraw. rewrite Hie, Z.eqb_refl.
      cbn [bind fst snd]. destruct k as [|[|k]]; [lia..|].
      rewrite (dispatch_transfer _ f w (n + 1) A_IFUND (mkSub _ 0 RNever) _ _ t1 [] ltac:(lia) eq_refl eq_refl Et).
      change (dispatch (S k) f _ _ A_IFUND []) with (Ok (set_tok w t1, n + 1 + 1)). cbn [bind fst snd wants_ok].
      destruct (IH (S (S k)) f (set_tok w t1) (n + 1 + 1) t' Hf ltac:(lia) Hie Hr ltac:(lia)) as (n' & Hd & Hn').
      exists n'. split; [exact Hd|lia].
Qed.

Lemma lrun_app t a b : lrun t (a ++ b) = do t1 <- lrun t a; lrun t1 b.
Proof.
  revert t. induction a as [|s a IH]; intros t; [reflexivity|]. cbn [app lrun].
  destruct (sm_msg s), (sm_reply s); try reflexivity.
  - destruct (tok_move t A_ENGINE to amt); cbn [bind]; [apply IH|reflexivity].
  - destruct (target =? A_IFUND); [|reflexivity]. destruct (tok_move t A_IFUND A_ENGINE amt); cbn [bind]; [apply IH|reflexivity].
Qed.

(* a successful move, seen from its two ends and from a third account *)
Lemma tok_move_live t from to o amt :
  amt <> 0 -> amt <= bal t from -> bal t to + amt < MAXU -> from <> to -> o <> from -> o <> to ->
  exists t1, tok_move t from to amt = Ok t1 /\
    bal t1 from = bal t from - amt /\ bal t1 to = bal t to + amt /\ bal t1 o = bal t o.
Proof.
  intros H0 H1 H2 N O1 O2. unfold tok_move.
  destruct (Z.eqb_spec amt 0); [contradiction|]. cbn [negb].
  destruct (Z.leb_spec amt (bal t from)); [|lia].
  rewrite bal_set_other by congruence. rewrite cadd_live by lia. eexists. split; [reflexivity|].
  repeat split; [rewrite bal_set_other, bal_set_same by assumption|rewrite bal_set_same|rewrite !bal_set_other by assumption]; reflexivity.
Qed.

Lemma lrun_draw w t x o :
  e_ifund (ec (w_eng w)) = A_IFUND -> o <> A_ENGINE -> o <> A_IFUND ->
  0 <= x <= bal t A_IFUND -> bal t A_ENGINE + x < MAXU ->
  exists t1, lrun t (nz x (execute_insurance_fund_withdrawal w x)) = Ok t1 /\
    bal t1 A_IFUND = bal t A_IFUND - x /\ bal t1 A_ENGINE = bal t A_ENGINE + x /\ bal t1 o = bal t o.
Proof.
  intros Hif O1 O2 Hx Hb. unfold nz. destruct (Z.eqb_spec x 0) as [->|N].
  - exists t. split; [reflexivity|lia].
  - unfold execute_insurance_fund_withdrawal. rewrite Hif. cbn [lrun sm_msg sm_reply]. rewrite Z.eqb_refl.
    destruct (tok_move_live t A_IFUND A_ENGINE o x) as (t1 & -> & H); [exact N|lia|lia|discriminate|exact O2|exact O1|]. cbn [bind lrun]. eauto.
Qed.

Lemma lrun_pay t to x o :
  to <> A_ENGINE -> o <> A_ENGINE -> o <> to -> 0 <= x <= bal t A_ENGINE -> bal t to + x < MAXU ->
  exists t1, lrun t (nz x (execute_transfer to x)) = Ok t1 /\
    bal t1 A_ENGINE = bal t A_ENGINE - x /\ bal t1 to = bal t to + x /\ bal t1 o = bal t o.
Proof.
  intros N O1 O2 Hx Hb. unfold nz. destruct (Z.eqb_spec x 0) as [->|N0].
  - exists t. split; [reflexivity|lia].
  - cbn [lrun sm_msg sm_reply execute_transfer].
    destruct (tok_move_live t A_ENGINE to o x) as (t1 & -> & H); [exact N0|lia|lia|congruence|exact O1|exact O2|]. cbn [bind lrun]. eauto.
Qed.

(* the reply's messages run when the vault holds the equity and the fund covers what the equity lacks for the fee *)
Lemma reply_msgs_lrun w t liq r fee ebd :
  e_ifund (ec (w_eng w)) = A_IFUND -> liq <> A_ENGINE -> liq <> A_IFUND ->
  0 <= fee -> 0 <= ebd -> 0 <= bal t A_ENGINE -> 0 <= bal t A_IFUND -> 0 <= bal t liq ->
  r <= bal t A_ENGINE -> fee - r <= bal t A_IFUND -> bal t A_ENGINE + bal t A_IFUND + bal t liq < MAXU ->
  let pre := Z.max 0 (Z.max 0 (fee - r) - ebd) in
  let sf := Z.max 0 (fee - (bal t A_ENGINE + pre)) in
  exists t', lrun t (nz pre (execute_insurance_fund_withdrawal w pre) ++
                     nz (Z.max 0 (r - fee)) (execute_transfer (e_ifund (ec (w_eng w))) (Z.max 0 (r - fee))) ++
                     nz sf (execute_insurance_fund_withdrawal w sf) ++ nz fee (execute_transfer liq fee)) = Ok t'.
Proof.
  intros Hif L1 L2 Hfee Hebd He Hf Hl Hvault Hfund Hmax pre sf. rewrite Hif.
  rewrite lrun_app. destruct (lrun_draw w t pre liq) as (t1 & -> & F1 & E1 & O1); [assumption..|lia|lia|]. cbn [bind].
  rewrite lrun_app. destruct (lrun_pay t1 A_IFUND (Z.max 0 (r - fee)) liq) as (t2 & -> & E2 & F2 & O2);
    [discriminate|assumption..|lia|lia|]. cbn [bind].
  rewrite lrun_app. destruct (lrun_draw w t2 sf liq) as (t3 & -> & F3 & E3 & O3); [assumption..|lia|lia|]. cbn [bind].
  destruct (lrun_pay t3 liq fee A_IFUND) as (t4 & -> & _); [assumption|discriminate|congruence|lia|lia|]. eauto.
Qed.

Lemma liquidate_reply_ledger_live w i o swap liq p :
  e_tmp (w_eng w) = Some swap -> e_liq (w_eng w) = Some liq ->
  let c := ec (w_eng w) in let st := es (w_eng w) in let v := ts_vamm swap in
  get_position (w_eng w) (w_env w) v (ts_trader swap) (ts_side swap) = p ->
  let lat := cumulative_premium_fraction (w_eng w) v in
  let X := Z.abs ((toZ lat - toZ (p_lupf p)) * toZ (p_size p)) in
  let tb := bal (w_tok w) A_ENGINE in let fund := bal (w_tok w) A_IFUND in
  pos_wf p -> cpf_wf (w_eng w) v -> 0 < e_dec c -> 0 <= o -> 0 <= ts_open_notional swap -> 0 <= e_liqfee c ->
  0 <= e_bad_debt st -> 0 <= tb -> 0 <= bal (w_tok w) liq ->
  sval lat < MAXU -> sval (p_lupf p) < MAXU -> sval (p_size p) < MAXU -> e_dec c < MAXU ->
  Z.abs (toZ lat - toZ (p_lupf p)) < MAXU ->
  (* no 128-bit overflow: one bound over everything that is ever added up *)
  X + ts_open_notional swap + o + p_margin p + o * e_liqfee c + e_bad_debt st + tb + fund + bal (w_tok w) liq < MAXU ->
  (* the registered insurance fund; the liquidator is neither the vault nor the fund *)
  e_ifund c = A_IFUND -> liq <> A_ENGINE -> liq <> A_IFUND ->
  (* the fund covers any shortfall *)
  X + ts_open_notional swap + o + p_margin p + o * e_liqfee c <= fund ->
  (* the vault holds the position's remaining equity (otherwise: known finding stale_vault_balance) *)
  liq_equity w v p (ts_open_notional swap) o <= tb ->
  exists e' msgs t', liquidate_reply w i o = Ok (set_eng w e', msgs) /\ lrun (w_tok w) msgs = Ok t' /\ (length msgs <= 4)%nat.
Proof.
  intros Htmp Hliq c st v Hgp lat X tb fund Hp Hc HD Ho Hon Hlf Hbd Htb Hlb B1 B2 B3 B4 R1 R2 Hif Hl1 Hl2 Hfund Hvault.
  pose proof Hp as (_ & _ & Hmg & _).
  destruct (liq_bounds w v p _ o _ _ Hp Hon Ho Hlf HD) as [Br Bfee]. fold v lat X in Br. fold c in Bfee.
  destruct (liquidate_reply_msgs w i o swap liq p Htmp Hliq Hgp Hp Hc HD Ho Hon Hlf Hbd Htb B1 B2 B3 B4 R1) as (e' & E);
    [unfold engine_balance; subst c st v lat X tb fund; lia|].
  fold c st v in E. unfold engine_balance in E. fold tb in E.
  assert (HX : 0 <= X) by apply Z.abs_nonneg. clearbody X. clear R1.
  destruct (reply_msgs_lrun w (w_tok w) liq (liq_equity w v p (ts_open_notional swap) o) (o * e_liqfee c / e_dec c / 2) (e_bad_debt st)
              Hif Hl1 Hl2 (proj1 Bfee) Hbd Htb) as (t' & Hrun); [fold fund; lia|exact Hlb|exact Hvault|fold fund; lia|fold tb fund; lia|].
  exists e'. eexists. exists t'. split; [exact E|]. split; [exact Hrun|].
  rewrite !app_length. change 4%nat with (1 + (1 + (1 + 1)))%nat. repeat apply Nat.add_le_mono; apply nz_length.
Qed.

(* the replying swap of a liquidation, its reply, the reply's messages; stated on `S k` because unfolding `dispatch` at the
   numeral FUEL unfolds the numeral *)
Lemma dispatch_liquidation_swap k f w1 v d size lim vm vm' q b w3 msgs w4 n' :
  f < 0 -> get_vamm w1 v = Ok vm ->
  swap_output vm (w_env w1) A_ENGINE d size lim = Ok (vm', (q, b)) ->
  liquidate_reply (set_vamm w1 v vm') b q = Ok (w3, msgs) ->
  dispatch k f w3 (0 + 1) A_ENGINE msgs = Ok (w4, n') ->
  dispatch k f w4 n' A_ENGINE [] = Ok (w4, n') ->
  dispatch (S k) f w1 0 A_ENGINE [mkSub (MSwapOutput v d size lim) LIQUIDATION_ID RAlways] = Ok (w4, n').
Proof.
  intros Hf Hv Hs Hr Hd Hn. cbn [dispatch]. destruct (Z.eqb_spec 0 f) as [E|_]; [lia|].
  cbn [sm_msg sm_reply sm_id exec_simple]. rewrite Hv. cbn [bind]. rewrite Hs. cbn [bind fst snd wants_ok].
  assert (Hcr : contract_reply (set_vamm w1 v vm') A_ENGINE LIQUIDATION_ID (Ok (EvSwap b q)) = liquidate_reply (set_vamm w1 v vm') b q) by reflexivity.
  rewrite Hcr, Hr. cbn [bind fst snd]. rewrite Hd. cbn [bind fst snd]. exact Hn.
Qed.

Theorem liquidate_full_tx_live f w s v t lim mr p vm vm' q b :
  f < 0 ->
  let wl := with_liquidator w s in
  let c := ec (w_eng w) in let st := es (w_eng w) in
  (* the position exists and its liquidation ratio is at or below maintenance; the vAMM is open and registered *)
  find_position (w_eng w) v t = Some p -> sval (p_size p) <> 0 ->
  liq_ratio wl v t = Ok mr -> sgtb mr (spos (e_maint c)) = false ->
  require_vamm wl v = Ok tt ->
  (* the full-liquidation branch *)
  (e_liqfee c <? sval mr) && negb (e_plr c =? 0) = false ->
  (* the vAMM fills the closing trade (and is inside its band) *)
  get_vamm w v = Ok vm ->
  swap_output vm (w_env w) A_ENGINE (side_to_direction (direction_to_side (p_dir p))) (sval (p_size p)) lim = Ok (vm', (q, b)) ->
  (* ranges *)
  let lat := cumulative_premium_fraction (w_eng w) v in
  let X := Z.abs ((toZ lat - toZ (p_lupf p)) * toZ (p_size p)) in
  let tb := bal (w_tok w) A_ENGINE in let fund := bal (w_tok w) A_IFUND in
  pos_wf p -> cpf_wf (w_eng w) v -> 0 < e_dec c -> 0 <= q -> 0 <= e_liqfee c ->
  0 <= e_bad_debt st -> 0 <= tb -> 0 <= bal (w_tok w) s ->
  sval lat < MAXU -> sval (p_lupf p) < MAXU -> sval (p_size p) < MAXU -> e_dec c < MAXU ->
  Z.abs (toZ lat - toZ (p_lupf p)) < MAXU ->
  X + p_notional p + q + p_margin p + q * e_liqfee c + e_bad_debt st + tb + fund + bal (w_tok w) s < MAXU ->
  (* the registered insurance fund pays the engine; the liquidator is neither the vault nor the fund *)
  e_ifund c = A_IFUND -> if_engine (w_if w) = A_ENGINE -> s <> A_ENGINE -> s <> A_IFUND ->
  (* the fund covers any shortfall; the vault holds the position's remaining equity *)
  X + p_notional p + q + p_margin p + q * e_liqfee c <= fund ->
  liq_equity w v p (p_notional p) q <= tb ->
  exists w', exec_op f w (OEngine s (ELiquidate v t lim) 0) = Ok w'.
Proof.
  intros Hf wl c st Hfind Hsz Hr Hm Hv Hfull Hvm Hswap lat X tb fund Hp Hc HD Hq Hlf Hbd Htb Hlb B1 B2 B3 B4 R1 R2 Hif Hie Hs1 Hs2 Hfund Hvault.
  assert (Hrp : read_position (w_eng w) v t = p) by (unfold read_position; rewrite Hfind; reflexivity).
  pose proof (liquidate_execute_live w s v t lim mr Hr Hv Hm ltac:(rewrite Hrp; exact Hsz) Hfull) as Hex.
  rewrite Hrp in Hex. unfold internal_close_position in Hex. cbn [fst snd] in Hex. unfold swap_output_msg in Hex.
  (* the transaction is the execute arm followed by the dispatch of what it returns *)
  cbn [exec_op]. unfold attach_funds. cbn [Z.eqb bind engine_execute]. rewrite Hex. clear Hex. cbn [bind fst snd].
  set (tm := mkTmp v t (direction_to_side (p_dir p)) (sval (p_size p)) 0 (p_notional p) 0 szero szero false).
  set (w1 := set_eng _ (eng_set_tmp _ (Some tm))).
  (* the world the reply sees differs from w in the vAMM, the liquidator and the pending swap only *)
  assert (Hgp : get_position (w_eng (set_vamm w1 v vm')) (w_env w) v t (ts_side tm) = p).
  { unfold get_position. change (find_position _ v t) with (find_position (w_eng w) v t). rewrite Hfind. reflexivity. }
  destruct (liquidate_reply_ledger_live (set_vamm w1 v vm') b q tm s p eq_refl eq_refl Hgp Hp Hc HD Hq (proj2 (proj2 (proj2 Hp)))
              Hlf Hbd Htb Hlb B1 B2 B3 B4 R1 R2 Hif Hs1 Hs2 Hfund Hvault) as (e' & msgs & t' & Hlr & Hrun & Hlen).
  destruct (dispatch_lrun msgs 63%nat f (set_eng (set_vamm w1 v vm') e') (0 + 1) t' Hf ltac:(lia) Hie Hrun ltac:(lia)) as (n' & Hd & _).
  change FUEL with (S 63).
  rewrite (dispatch_liquidation_swap 63 f w1 v _ _ lim vm vm' q b _ msgs _ n' Hf Hvm Hswap Hlr Hd eq_refl).
  cbn [bind fst]. eexists. reflexivity.
Qed.
