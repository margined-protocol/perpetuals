(* C02 through every transaction: the mirror invariant, and the side conditions of its step theorem (configuration
   bounds, every vAMM wired to the engine), which are themselves invariant; `cfg_same` serves C20 as well. *)
From MP.Model Require Import Prelude U128 SInt Feed Vamm VammOps Token World Engine Runtime.
From MP.Proofs Require Import Tactics MapFacts VammFacts RuntimeFacts HandlerFacts ResidueFacts ConfigFacts MirrorFacts PendingFacts.

(* w' has the same engine configuration, registry and vAMM configurations as w *)
Definition cfg_same (w w' : world) : Prop :=
  ec (w_eng w') = ec (w_eng w) /\ w_if w' = w_if w /\
  (forall v vm', zfind v (w_vamms w') = Some vm' -> exists vm, zfind v (w_vamms w) = Some vm /\ vc vm' = vc vm) /\
  (forall v vm, zfind v (w_vamms w) = Some vm -> exists vm', zfind v (w_vamms w') = Some vm' /\ vc vm' = vc vm).

Lemma cfg_same_refl w : cfg_same w w.
Proof. repeat split; eauto. Qed.

Lemma cfg_same_trans a b c : cfg_same a b -> cfg_same b c -> cfg_same a c.
Proof.
  intros (A1 & A2 & A3 & A4) (B1 & B2 & B3 & B4). split; [congruence|]. split; [congruence|]. split.
  - intros v vm' H. destruct (B3 _ _ H) as (vm1 & H1 & E1). destruct (A3 _ _ H1) as (vm0 & H0 & E0). exists vm0. split; [exact H0|congruence].
  - intros v vm H. destruct (A4 _ _ H) as (vm1 & H1 & E1). destruct (B4 _ _ H1) as (vm2 & H2 & E2). exists vm2. split; [exact H2|congruence].
Qed.

Lemma cfg_same_eq_vamms w w' : ec (w_eng w') = ec (w_eng w) -> w_if w' = w_if w -> w_vamms w' = w_vamms w -> cfg_same w w'.
Proof. intros E1 E2 E3. split; [exact E1|]. split; [exact E2|]. rewrite E3. split; eauto. Qed.

Lemma cfg_same_set_vamm w v vm vm' : zfind v (w_vamms w) = Some vm -> vc vm' = vc vm -> cfg_same w (set_vamm w v vm').
Proof.
  intros Hz Hc. split; [reflexivity|]. split; [reflexivity|]. cbn [w_vamms set_vamm]. split.
  - intros u um H. destruct (Z.eq_dec u v) as [->|Hne].
    + rewrite zfind_zset_same in H. injection H as <-. eauto.
    + rewrite zfind_zset_other in H by exact Hne. eauto.
  - intros u um H. destruct (Z.eq_dec u v) as [->|Hne].
    + rewrite zfind_zset_same. rewrite Hz in H. injection H as <-. eauto.
    + rewrite zfind_zset_other by exact Hne. eauto.
Qed.

Lemma exec_simple_cfg_same w s m w' ev : exec_simple w s m = Ok (w', ev) -> cfg_same w w'.
Proof.
  intros H. destruct (exec_simple_vc _ _ _ _ _ H) as [(v & vm & vm' & Hz & -> & Hc)|(t & ->)];
    [exact (cfg_same_set_vamm _ _ _ _ Hz Hc)|apply cfg_same_eq_vamms; reflexivity].
Qed.

Lemma dispatched_cfg_same f w n sender subs w' n' : dispatched f w n sender subs w' n' -> cfg_same w w'.
Proof.
  intros H. apply (dispatched_inv (cfg_same w)) with (3 := H); [| |apply cfg_same_refl].
  - intros w0 s0 m w1 ev Hx Hq. exact (cfg_same_trans _ _ _ Hq (exec_simple_cfg_same _ _ _ _ _ Hx)).
  - intros w0 s0 id r w1 sb Hx Hq. apply (cfg_same_trans _ _ _ Hq).
    destruct (contract_reply_eng _ _ _ _ _ _ Hx) as (e' & -> & He). apply cfg_same_eq_vamms; [exact He|reflexivity|reflexivity].
Qed.

Lemma good_vamms_set w v vm vm' : good_vamms w -> zfind v (w_vamms w) = Some vm -> v_engine (vc vm') = v_engine (vc vm) -> good_vamms (set_vamm w v vm').
Proof.
  intros Hg Hz He u um Hu. cbn [set_vamm w_vamms] in Hu. destruct (Z.eq_dec u v) as [->|Hne].
  - rewrite zfind_zset_same in Hu. injection Hu as <-. rewrite He. eauto.
  - rewrite zfind_zset_other in Hu by assumption. eauto.
Qed.

Definition cfg_inv (w : world) : Prop := ecfg_ok (ec (w_eng w)) /\ good_vamms w.

Lemma cfg_inv_same w w' : cfg_same w w' -> cfg_inv w -> cfg_inv w'.
Proof.
  intros (E1 & _ & E3 & _) [H1 H2]. split; [rewrite E1; exact H1|].
  intros v vm' H. destruct (E3 _ _ H) as (vm & Hz & Ec). rewrite Ec. exact (H2 _ _ Hz).
Qed.

(* operations as they can actually be sent: amounts are unsigned; only the vAMM owner could rewire
   a vAMM to another engine, which takes it out of this deployment *)
Definition op_ok (o : op) : Prop :=
  op_ext o /\
  match o with
  | OEngine _ (EUpdateConfig _ _ _ a b c d) _ => opt_nonneg a /\ opt_nonneg b /\ opt_nonneg c /\ opt_nonneg d
  | OVamm _ _ (WUpdateConfig u) => u_engine u = None \/ u_engine u = Some A_ENGINE
  | _ => True
  end.

Lemma engine_execute_cfg w s m funds w1 subs :
  engine_execute w s m funds = Ok (w1, subs) ->
  match m with EUpdateConfig _ _ _ a b c d => opt_nonneg a /\ opt_nonneg b /\ opt_nonneg c /\ opt_nonneg d | _ => True end ->
  cfg_inv w -> cfg_inv w1.
Proof.
  intros H Hok [H1 H2]. destruct (engine_execute_eng _ _ _ _ _ _ H) as (e' & -> & He). split; [|exact H2].
  cbn [w_eng set_eng]. destruct m; try (rewrite He; exact H1).
  destruct Hok as (Ha & Hb & Hc & Hd). eapply e_update_config_cfg in H; eauto. apply H.
Qed.

(* a direct call to a vAMM: swaps and funding are for the engine only, opening, closing and a change of owner keep the
   net position and the configuration *)
Lemma exec_vamm_op f w s v vo w' : exec_op f w (OVamm s v vo) = Ok w' ->
  exists vm vm', zfind v (w_vamms w) = Some vm /\ w' = set_vamm w v vm' /\
    match vo with
    | WUpdateConfig u => vamm_update_config vm s u = Ok vm'
    | WSetOpen _ | WUpdateOwner _ => vc vm' = vc vm /\ v_total (vs vm') = v_total (vs vm)
    | _ => vc vm' = vc vm /\ s = v_engine (vc vm)
    end.
Proof.
  cbn [exec_op]. intros H. arm H. do 2 eexists. split; [eauto using get_vamm_find|split; [reflexivity|]].
  destruct vo; arm Hx0.
  - split; [exact (swap_input_vc _ _ _ _ _ _ _ _ Hx1)|apply (swap_input_only_engine _ _ _ _ _ _ _ _ Hx1)].
  - split; [exact (swap_output_vc _ _ _ _ _ _ _ Hx1)|apply (swap_output_only_engine _ _ _ _ _ _ _ Hx1)].
  - split; [apply (settle_funding_frame _ _ _ _ _ _ Hx1)|exact (settle_funding_only_engine _ _ _ _ _ Hx1)].
  - apply set_open_frame in Hx0. tauto.
  - exact Hx0.
  - apply update_owner_frame in Hx0. destruct Hx0 as (Hs & _ & Hc & _). rewrite Hs. tauto.
Qed.

Lemma exec_op_cfg f w o w' : exec_op f w o = Ok w' -> op_ok o -> cfg_inv w -> cfg_inv w'.
Proof.
  intros H [_ Hok] Hc. pose proof (exec_op_cases _ _ _ _ H) as Hk. destruct o.
  - subst. exact Hc.
  - destruct Hk as (t & w1 & subs & n & He & Hd).
    exact (cfg_inv_same _ _ (dispatched_cfg_same _ _ _ _ _ _ _ Hd) (engine_execute_cfg _ _ _ _ _ _ He Hok Hc)).
  - destruct (exec_vamm_op _ _ _ _ _ _ H) as (vm & vm' & Hz & -> & Hvo). destruct Hc as [H1 H2]. split; [exact H1|].
    eapply good_vamms_set; eauto. destruct o; try (apply proj1 in Hvo; rewrite Hvo; reflexivity).
    unfold vamm_update_config in Hvo. arm Hvo. cbn [vc v_engine]. destruct Hok as [->| ->]; cbn [opt_or]; [reflexivity|symmetry; eauto].
  - destruct Hk as (i & subs & n & _ & Hd). exact (cfg_inv_same _ _ (dispatched_cfg_same _ _ _ _ _ _ _ Hd) Hc).
  - destruct Hk as (i & subs & n & _ & Hd). exact (cfg_inv_same _ _ (dispatched_cfg_same _ _ _ _ _ _ _ Hd) Hc).
  - destruct Hk as [fd ->]. exact Hc.
  - destruct Hk as [t ->]. exact Hc.
Qed.

Lemma dispatched_noreply_mirror v0 f w n c subs w' n' :
  dispatched f w n c subs w' n' -> Forall noreply subs -> mirror v0 w -> mirror v0 w'.
Proof.
  apply (dispatched_quiet (fun m => is_swap m = false) (mirror v0)); [reflexivity|].
  intros w0 c0 m w1 ev Hm Hx. exact (exec_noswap_mirror _ _ _ _ _ _ Hx Hm).
Qed.

Lemma exec_op_mirror f w o w' :
  exec_op f w o = Ok w' -> op_ext o -> mirror_all w -> plr_ok w -> good_vamms w -> mirror_all w'.
Proof.
  intros H Hext Hall Hplr Hgood v0. pose proof (Hall v0) as Hm. pose proof (exec_op_cases _ _ _ _ H) as Hc.
  destruct o.
  - subst. exact Hm.
  - destruct Hc as (t & w1 & subs & n & He & Hd).
    eapply dispatched_mirror; [exact Hd|]. exact (engine_execute_readym _ _ _ _ _ _ He Hall Hplr v0).
  - (* a direct call to a vAMM: the sender is not the engine, every vAMM's engine is *)
    destruct (exec_vamm_op _ _ _ _ _ _ H) as (vm & vm' & Hz & -> & Hvo). cbn [op_ext] in Hext. pose proof (Hgood v vm Hz) as Hge.
    eapply mirror_vamm_total; eauto. destruct o; try (destruct Hvo; congruence).
    apply update_config_frame in Hvo. destruct Hvo as (-> & _). reflexivity.
  - destruct Hc as (i & subs & n & Hs & Hd).
    exact (dispatched_noreply_mirror _ _ _ _ _ _ _ _ Hd (Forall_impl _ silent_noreply Hs) Hm).
  - destruct Hc as (i & subs & n & Hs & Hd).
    exact (dispatched_noreply_mirror _ _ _ _ _ _ _ _ Hd (Forall_impl _ silent_noreply Hs) Hm).
  - destruct Hc as [fd ->]. exact Hm.
  - destruct Hc as [t ->]. exact Hm.
Qed.

Definition c02_inv (w : world) : Prop := mirror_all w /\ cfg_inv w.
