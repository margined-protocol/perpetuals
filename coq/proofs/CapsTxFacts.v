(* The increase reply leaves open interest and the trader's size within the non-zero caps, unless the trader is
   whitelisted: the reply-level step of C20_open_increase_tx_caps. *)
From MP.Model Require Import Prelude U128 SInt Feed Vamm VammOps Token World Engine Runtime.
From MP.Proofs Require Import Tactics SIntFacts ConfigFacts CloseFacts FrameFacts.

Lemma withdraw_oi w st r a p st' msgs : withdraw w st r a p = Ok (st', msgs) -> e_oi st' = e_oi st.
Proof. intros H. apply withdraw_spec in H. destruct H as (sf & [(_ & _ & ->) | (_ & _ & _ & _ & Ho & _)]); auto. Qed.

Lemma increase_reply_caps w i o w' subs tm vm :
  update_position_reply w i o INCREASE_ID = Ok (w', subs) -> e_tmp (w_eng w) = Some tm ->
  get_vamm w (ts_vamm tm) = Ok vm -> is_whitelisted w (ts_trader tm) = false -> 0 <= i -> 0 <= e_oi (es (w_eng w)) ->
  (0 < v_oi_cap (vc vm) -> e_oi (es (w_eng w')) <= v_oi_cap (vc vm)) /\
  (v_hold_cap (vc vm) <> 0 ->
     exists p', find_position (w_eng w') (ts_vamm tm) (ts_trader tm) = Some p' /\ sval (p_size p') <= v_hold_cap (vc vm)).
Proof.
  intros H Htmp Hv Hwl Hi Hoi. unfold update_position_reply, need_tmp in H. rewrite Htmp in H. cbn [bind] in H.
  rewrite Z.eqb_refl in H.
  destruct (need_sent w) as [funds|]; [|discriminate]. cbn [bind] in H. cbv zeta in H.
  destruct (update_open_interest_notional w (es (w_eng w)) (ts_vamm tm) (spos i) (ts_trader tm)) as [st1|] eqn:Eo; [|discriminate]. cbn [bind] in H.
  destruct (update_oi_cap _ _ _ _ _ _ (spos_wf0 _ Hi) Hoi Eo) as (vm1 & Hv1 & Hcap & Hnn).
  rewrite Hv in Hv1. injection Hv1 as <-.
  assert (Hpos : s_is_positive (spos i) = true) by (unfold s_is_positive, s_is_negative; cbn [sneg spos]; reflexivity).
  arm H.
  match goal with Hh : check_base_asset_holding_cap _ _ _ _ = Ok _ |- _ =>
    destruct (holding_cap _ _ _ _ _ Hh) as (vm2 & Hv2 & Hhold);
    assert (vm2 = vm) by (unfold get_vamm in *; cbn [w_vamms set_eng] in Hv2; rewrite Hv in Hv2; congruence); subst vm2 end.
  (* settling the margin difference, by a withdrawal or not, leaves the open interest alone *)
  match goal with |- context [eng_set_state _ ?st] => assert (Ho : e_oi st = e_oi st1)
    by (defn st; try reflexivity; match goal with Hw : withdraw _ _ _ _ _ = Ok _ |- _ => exact (withdraw_oi _ _ _ _ _ _ _ Hw) end) end.
  cbn [w_eng set_eng es eng_set_sent eng_set_tmp eng_set_state]. rewrite Ho. split; [intros Hc; exact (Hcap Hc Hpos Hwl)|].
  intros Hc. eexists. split; [rewrite ?find_set_state, ?find_set_sent, ?find_set_tmp; apply find_store_same|].
  cbn [p_size]. apply Hhold; [exact Hc|exact Hwl].
Qed.

