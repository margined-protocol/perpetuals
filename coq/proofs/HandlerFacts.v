(* Which part of the world each handler can rewrite, and how a transaction decomposes into its handler and the
   dispatch of what the handler returned.  The invariants of the other files are lifted through these. *)
From MP.Model Require Import Prelude U128 SInt Feed Vamm VammOps Token World Engine Runtime.
From MP.Proofs Require Import Tactics VammFacts RuntimeFacts.

Lemma get_vamm_find w a vm : get_vamm w a = Ok vm -> zfind a (w_vamms w) = Some vm.
Proof. unfold get_vamm. destruct (zfind a (w_vamms w)); intros H; inv_ok; reflexivity. Qed.

(* a message to a vAMM rewrites that vAMM and keeps its configuration; the others rewrite the ledger *)
Lemma exec_simple_cases w s m w' ev : exec_simple w s m = Ok (w', ev) ->
  match m with
  | MSwapInput v _ _ _ _ | MSwapOutput v _ _ _ | MSettleFunding v | MSetOpen v _ =>
      exists vm vm', zfind v (w_vamms w) = Some vm /\ w' = set_vamm w v vm' /\ vc vm' = vc vm
  | _ => exists t, w' = set_tok w t
  end.
Proof.
  unfold exec_simple. intros H. destruct m; arm H; [do 2 eexists; (split; [eauto using get_vamm_find|split; [reflexivity|]]) ..|eauto|eauto].
  - exact (swap_input_vc _ _ _ _ _ _ _ _ Hx0).
  - exact (swap_output_vc _ _ _ _ _ _ _ Hx0).
  - apply settle_funding_frame in Hx0. apply Hx0.
  - apply set_open_frame in Hx0. apply Hx0.
Qed.

Lemma exec_simple_vc w s m w' ev : exec_simple w s m = Ok (w', ev) ->
  (exists v vm vm', zfind v (w_vamms w) = Some vm /\ w' = set_vamm w v vm' /\ vc vm' = vc vm) \/ (exists t, w' = set_tok w t).
Proof. intros H. apply exec_simple_cases in H. destruct m; eauto. Qed.

Lemma exec_simple_eng w s m w' ev : exec_simple w s m = Ok (w', ev) -> w_eng w' = w_eng w.
Proof. intros H. destruct (exec_simple_vc _ _ _ _ _ H) as [(v & vm & vm' & _ & -> & _)|(t & ->)]; reflexivity. Qed.
Lemma exec_simple_env w s m w' ev : exec_simple w s m = Ok (w', ev) -> w_env w' = w_env w.
Proof. intros H. destruct (exec_simple_vc _ _ _ _ _ H) as [(v & vm & vm' & _ & -> & _)|(t & ->)]; reflexivity. Qed.
Lemma exec_simple_if w s m w' ev : exec_simple w s m = Ok (w', ev) -> w_if w' = w_if w.
Proof. intros H. destruct (exec_simple_vc _ _ _ _ _ H) as [(v & vm & vm' & _ & -> & _)|(t & ->)]; reflexivity. Qed.

Lemma exec_swap_input w s v d q l c w1 ev :
  exec_simple w s (MSwapInput v d q l c) = Ok (w1, ev) ->
  exists vm vm' qa ba, zfind v (w_vamms w) = Some vm /\ swap_input vm (w_env w) s d q l c = Ok (vm', (qa, ba)) /\
    w1 = set_vamm w v vm' /\ ev = EvSwap qa ba.
Proof. cbn [exec_simple]. intros H. arm H. eauto 10 using get_vamm_find. Qed.

Lemma exec_swap_output w s v d b l w1 ev :
  exec_simple w s (MSwapOutput v d b l) = Ok (w1, ev) ->
  exists vm vm' qa ba, zfind v (w_vamms w) = Some vm /\ swap_output vm (w_env w) s d b l = Ok (vm', (qa, ba)) /\
    w1 = set_vamm w v vm' /\ ev = EvSwap ba qa.
Proof. cbn [exec_simple]. intros H. arm H. eauto 10 using get_vamm_find. Qed.

Lemma append_cpf_vmap e v pf e' : append_cumulative_premium_fraction e v pf = Ok e' -> exists m, e' = eng_set_vmap e v m.
Proof. unfold append_cumulative_premium_fraction. intros H. arm H. eauto. Qed.

Lemma runs_exec f w n c m w1 n1 ev : runs f w n c m w1 n1 ev -> exists c' m' ev', exec_simple w c' m' = Ok (w1, ev').
Proof. destruct 1; eauto. Qed.

(* the messages the three helpers of the reply arms emit: a property of the builders is a property of the lists *)
Lemma withdraw_Forall (P : submsg -> Prop) w st r a pre st' msgs : withdraw w st r a pre = Ok (st', msgs) ->
  (forall x, P (execute_insurance_fund_withdrawal w x)) -> P (execute_transfer r a) -> Forall P msgs.
Proof. unfold withdraw. intros H Hd Ht. minv H; inv_ok; repeat constructor; auto. Qed.

Lemma fees_Forall (P : submsg -> Prop) w from v n msgs sp tl : transfer_fees w from v n = Ok (msgs, sp, tl) ->
  P (execute_transfer_from w from (e_ifund (ec (w_eng w))) sp) -> P (execute_transfer_from w from (e_feepool (ec (w_eng w))) tl) ->
  Forall P msgs.
Proof. unfold transfer_fees. intros H Hs Ht. minv H. inv_ok. apply Forall_app. split; destr_if; repeat constructor; assumption. Qed.

Lemma realize_Forall (P : submsg -> Prop) w st bd msgs st' pp : realize_bad_debt w st bd = Ok (msgs, st', pp) ->
  (forall x, P (execute_insurance_fund_withdrawal w x)) -> Forall P msgs.
Proof. unfold realize_bad_debt. intros H Hd. minv H; inv_ok; repeat constructor; auto. Qed.

(* `Forall P msgs` for the list a handler returns: appended pieces, helper lists, conditionals; `tac` proves P of a builder *)
Ltac msgs_goal tac :=
  repeat first
  [ apply Forall_nil
  | apply Forall_app; split
  | match goal with |- Forall _ ((if ?c then _ else _) :: _) => destruct c end
  | apply Forall_cons; [tac|]
  | eapply withdraw_Forall; [eassumption|intros; tac|tac]
  | eapply fees_Forall; [eassumption|tac|tac]
  | eapply realize_Forall; [eassumption|intros; tac]
  | match goal with |- Forall _ ?m => is_var m; defn m end
  | destr_if ].

Lemma reply_increase w i o : contract_reply w A_ENGINE INCREASE_ID (Ok (EvSwap i o)) = update_position_reply w i o INCREASE_ID.
Proof. reflexivity. Qed.
Lemma reply_decrease w i o : contract_reply w A_ENGINE DECREASE_ID (Ok (EvSwap i o)) = update_position_reply w i o DECREASE_ID.
Proof. reflexivity. Qed.
Lemma reply_reverse w i o : contract_reply w A_ENGINE REVERSE_ID (Ok (EvSwap i o)) = reverse_position_reply w i o.
Proof. reflexivity. Qed.
Lemma reply_close w i o : contract_reply w A_ENGINE CLOSE_ID (Ok (EvSwap i o)) = close_position_reply w i o.
Proof. reflexivity. Qed.
Lemma reply_partial_close w i o : contract_reply w A_ENGINE PARTIAL_CLOSE_ID (Ok (EvSwap i o)) = partial_close_position_reply w o i.
Proof. reflexivity. Qed.
Lemma reply_liquidation w i o : contract_reply w A_ENGINE LIQUIDATION_ID (Ok (EvSwap i o)) = liquidate_reply w i o.
Proof. reflexivity. Qed.
Lemma reply_partial_liquidation w i o :
  contract_reply w A_ENGINE PARTIAL_LIQUIDATION_ID (Ok (EvSwap i o)) = partial_liquidation_reply w i o.
Proof. reflexivity. Qed.
Lemma reply_pay_funding w pf v : contract_reply w A_ENGINE PAY_FUNDING_ID (Ok (EvFunding pf v)) = pay_funding_reply w pf v.
Proof. reflexivity. Qed.
Global Hint Rewrite reply_increase reply_decrease reply_reverse reply_close reply_partial_close reply_liquidation
  reply_partial_liquidation reply_pay_funding : reply_id.

(* a reply handler rewrites the engine's record only, and not its configuration *)
Lemma contract_reply_eng w c id r w' subs : contract_reply w c id r = Ok (w', subs) ->
  exists e', w' = set_eng w e' /\ ec e' = ec (w_eng w).
Proof.
  unfold contract_reply, engine_reply. intros H.
  destruct (c =? A_ENGINE); [|discriminate]. destruct r as [[]|]; try discriminate;
    repeat (destr_if_in H; [|try discriminate H]).
  all: unfold update_position_reply, reverse_position_reply, close_position_reply, partial_close_position_reply,
         liquidate_reply, partial_liquidation_reply, pay_funding_reply in H.
  all: arm H; try match goal with Ha : append_cumulative_premium_fraction _ _ _ = Ok _ |- _ => apply append_cpf_vmap in Ha; destruct Ha as [m ->] end;
    eexists; split; reflexivity.
Qed.

Lemma contract_reply_tok w c id r w' subs : contract_reply w c id r = Ok (w', subs) -> w_tok w' = w_tok w.
Proof. intros H. destruct (contract_reply_eng _ _ _ _ _ _ H) as (e' & -> & _). reflexivity. Qed.
Lemma contract_reply_env w c id r w' subs : contract_reply w c id r = Ok (w', subs) -> w_env w' = w_env w.
Proof. intros H. destruct (contract_reply_eng _ _ _ _ _ _ H) as (e' & -> & _). reflexivity. Qed.
Lemma contract_reply_if w c id r w' subs : contract_reply w c id r = Ok (w', subs) -> w_if w' = w_if w.
Proof. intros H. destruct (contract_reply_eng _ _ _ _ _ _ H) as (e' & -> & _). reflexivity. Qed.
Lemma contract_reply_vamms w c id r w' subs : contract_reply w c id r = Ok (w', subs) -> w_vamms w' = w_vamms w.
Proof. intros H. destruct (contract_reply_eng _ _ _ _ _ _ H) as (e' & -> & _). reflexivity. Qed.

(* the answer to a reversal's closing swap: the old position is settled (the funding it owes charged) and stored
   empty, stamped with the block; the fee is charged once, on the requested notional; then either nothing is left to
   re-open and what the old position releases is paid out, or the re-opening swap is sent for the remaining notional
   q, with a fresh record of the same trade that marks the fee as paid *)
Lemma reverse_position_reply_spec w i o w' subs tm :
  reverse_position_reply w i o = Ok (w', subs) -> e_tmp (w_eng w) = Some tm ->
  let v := ts_vamm tm in let t := ts_trader tm in
  let p := get_position (w_eng w) (w_env w) v t (ts_side tm) in
  let e1 := store_position (w_eng w) v t (clear_position p (height (w_env w))) in
  exists st1 fp margin bad latest fmsgs spread toll x,
    update_open_interest_notional w (es (w_eng w)) v (sneg_ o) t = Ok st1 /\
    calc_remain_margin w v p szero = Ok (fp, margin, bad, latest) /\
    transfer_fees w t v (ts_open_notional tm) = Ok (fmsgs, spread, toll) /\
    schecked_sub (sneg_ margin) (ts_upnl tm) = Ok x /\
    (w' = set_eng w (eng_set_state (eng_set_sent (eng_set_tmp e1 None) None) st1) /\
     subs = fmsgs ++ [execute_transfer t (sval x)] \/
     exists q sent, 0 <= q /\
       w' = set_eng w (eng_set_state (eng_set_sent (eng_set_tmp e1
              (Some (mkTmp v t (ts_side tm) (ts_margin_amount tm) (ts_leverage tm) q (ts_position_notional tm) szero x true)))
              (Some sent)) st1) /\
       subs = fmsgs ++ [internal_increase_position v (ts_side tm) q 0]).
Proof.
  intros H Htmp. cbv zeta. unfold reverse_position_reply, need_tmp in H. rewrite Htmp in H. cbn [bind] in H.
  arm H; do 9 eexists; do 3 (split; [reflexivity|]); (split; [eassumption|]); [left; split; reflexivity|].
  right. do 2 eexists. split; [|split; reflexivity].
  match goal with Hq : (if _ then csub _ _ else csub _ _) = Ok _ |- _ => minv Hq end; arith_ok; lia.
Qed.

Lemma dispatched_env f w n c subs w' n' : dispatched f w n c subs w' n' -> w_env w' = w_env w.
Proof.
  intros H. apply (dispatched_inv (fun x => w_env x = w_env w)) in H; [exact H| | |reflexivity].
  - intros w0 c0 m w1 ev Hx <-. exact (exec_simple_env _ _ _ _ _ Hx).
  - intros w0 c0 id ev w1 sb Hx <-. exact (contract_reply_env _ _ _ _ _ _ Hx).
Qed.

Lemma dispatched_if f w n c subs w' n' : dispatched f w n c subs w' n' -> w_if w' = w_if w.
Proof.
  intros H. apply (dispatched_inv (fun x => w_if x = w_if w)) in H; [exact H| | |reflexivity].
  - intros w0 c0 m w1 ev Hx <-. exact (exec_simple_if _ _ _ _ _ Hx).
  - intros w0 c0 id ev w1 sb Hx <-. exact (contract_reply_if _ _ _ _ _ _ Hx).
Qed.

(* an execute arm rewrites the engine's record only; UpdateConfig alone writes the configuration *)
Lemma engine_execute_eng w s m funds w' subs : engine_execute w s m funds = Ok (w', subs) ->
  exists e', w' = set_eng w e' /\ match m with EUpdateConfig _ _ _ _ _ _ _ => True | _ => ec e' = ec (w_eng w) end.
Proof.
  unfold engine_execute. intros H.
  destruct m; [unfold e_update_config in H|unfold e_update_pauser in H|unfold e_add_whitelist in H|unfold e_remove_whitelist in H
              |unfold e_open_position in H|unfold e_close_position, internal_close_position in H
              |unfold e_liquidate, internal_close_position in H|unfold e_pay_funding in H|unfold e_deposit_margin in H
              |unfold e_withdraw_margin in H|unfold e_set_pause in H]; arm H;
  first [ eexists; split; [reflexivity|]; first [exact I|reflexivity]
        | match goal with |- exists e, ?W = set_eng ?W e /\ _ => exists (w_eng W); destruct W; split; reflexivity end
        | match goal with Hp : partial_liquidation _ _ _ _ = Ok _ |- _ =>
            unfold partial_liquidation in Hp; arm Hp; eexists; split; reflexivity end ].
Qed.

(* OpenPosition records the requested quote amount margin x leverage / D as the notional to trade and to charge,
   with the fee not yet paid, and emits one swap: the route is decided on the position's notional at spot *)
Lemma open_position_shape w t v s m l lim f w' subs :
  e_open_position w t v s m l lim f = Ok (w', subs) ->
  let p := get_position (w_eng w) (w_env w) v t s in
  let N := m * l / e_dec (ec (w_eng w)) in
  exists pn upnl, get_pnl w v p PSpot = Ok (pn, upnl) /\
    w' = set_eng w (eng_set_sent (eng_set_tmp (w_eng w) (Some (mkTmp v t s m l N pn upnl szero false)))
                                 (Some (mkSent (if t_native (w_tok w) then f else 0) 0))) /\
    subs = [if s_is_zero (p_size p) || (dir_eqb (p_dir p) AddToAmm && side_eqb s Buy) || (dir_eqb (p_dir p) RemoveFromAmm && side_eqb s Sell)
            then internal_increase_position v s N lim
            else if N <? pn then swap_input_msg v s N lim false DECREASE_ID
            else swap_output_msg v (direction_to_side (p_dir p)) (sval (p_size p)) 0 REVERSE_ID].
Proof. unfold e_open_position. intros H. arm H. arith_ok. subst. do 2 eexists. repeat split. Qed.

(* funds attached to a call move on the ledger before the handler runs *)
Lemma attach_funds_tok w s c funds w0 : attach_funds w s c funds = Ok w0 ->
  (funds = 0 /\ w0 = w) \/ (funds <> 0 /\ t_native (w_tok w) = true /\ exists t, tok_move (w_tok w) s c funds = Ok t /\ w0 = set_tok w t).
Proof. unfold attach_funds. intros H. destruct (Z.eqb_spec funds 0); [inv_ok; auto|]. arm H. eauto 6. Qed.

Lemma attach_funds_set_tok w s c funds w0 : attach_funds w s c funds = Ok w0 -> exists t, w0 = set_tok w t.
Proof.
  intros H. destruct (attach_funds_tok _ _ _ _ _ H) as [[_ ->]|(_ & _ & t & _ & ->)]; [exists (w_tok w); destruct w; reflexivity|eauto].
Qed.

(* a message the insurance fund or the fee pool emits: a transfer or a vAMM shutdown, never replied to *)
Definition silent_msg (m : msg) : Prop := match m with MTransfer _ _ | MSetOpen _ _ => True | _ => False end.
Definition silent (s : submsg) : Prop := wants_ok (sm_reply s) = false /\ silent_msg (sm_msg s).

Lemma exec_engine_inv f w s m funds w' : exec_op f w (OEngine s m funds) = Ok w' ->
  exists w0 w1 subs n, attach_funds w s A_ENGINE funds = Ok w0 /\ engine_execute w0 s m funds = Ok (w1, subs) /\
    dispatched f w1 0 A_ENGINE subs w' n.
Proof.
  cbn [exec_op]. generalize FUEL. intros fuel H. arm H.
  match goal with Hd : dispatch _ _ _ _ _ _ = Ok _ |- _ => apply dispatch_dispatched in Hd end. eauto 8.
Qed.

(* the handler runs on the world with the attached funds moved, and what it returns is dispatched *)
Lemma exec_engine_tok f w s m funds w' : exec_op f w (OEngine s m funds) = Ok w' ->
  exists tk w1 subs n, engine_execute (set_tok w tk) s m funds = Ok (w1, subs) /\ dispatched f w1 0 A_ENGINE subs w' n.
Proof.
  intros H. apply exec_engine_inv in H. destruct H as (w0 & w1 & subs & n & Ha & He & Hd).
  apply attach_funds_set_tok in Ha. destruct Ha as [tk ->]. eauto 6.
Qed.

Lemma exec_engine_env f w s m funds w' : exec_op f w (OEngine s m funds) = Ok w' -> w_env w' = w_env w.
Proof.
  intros H. apply exec_engine_tok in H. destruct H as (tk & w1 & subs & n & He & Hd).
  destruct (engine_execute_eng _ _ _ _ _ _ He) as (e' & -> & _).
  exact (dispatched_env _ _ _ _ _ _ _ Hd).
Qed.

Lemma exec_op_cases f w o w' : exec_op f w o = Ok w' ->
  match o with
  | OBlock dt dh => w' = set_env w (mkEnv (now (w_env w) + dt) (height (w_env w) + dh))
  | OEngine s m funds =>
      exists tk w1 subs n, engine_execute (set_tok w tk) s m funds = Ok (w1, subs) /\ dispatched f w1 0 A_ENGINE subs w' n
  | OVamm s v vo => exists vm vm', get_vamm w v = Ok vm /\ w' = set_vamm w v vm'
  | OIfund s m => exists i subs n, Forall silent subs /\ dispatched f (set_if w i) 0 A_IFUND subs w' n
  | OFeepool s m => exists p subs n, Forall silent subs /\ dispatched f (set_fp w p) 0 A_FEEPOOL subs w' n
  | OFeed s m => exists fd, w' = set_feed w fd
  | OToken s m => exists t, w' = set_tok w t
  end.
Proof.
  intros H. destruct o; [cbn [exec_op] in H; inv_ok; reflexivity|apply exec_engine_tok; exact H| | | | |];
    cbn [exec_op] in H; revert H; generalize FUEL; intros fuel H.
  - arm H. eauto.
  - arm H. match goal with Hd : dispatch _ _ _ _ _ _ = Ok _ |- _ => apply dispatch_dispatched in Hd end.
    destruct m; [unfold if_update_owner in Hx|unfold if_add_vamm in Hx|unfold if_remove_vamm in Hx|unfold if_withdraw in Hx|unfold if_shutdown in Hx];
      arm Hx; try (do 3 eexists; split; [|eassumption]; repeat constructor; fail).
    all: match goal with Hd : dispatched _ ?W _ _ _ _ _ |- _ => exists (w_if W); do 2 eexists; split; [|destruct W; eassumption] end.
    + repeat constructor.
    + apply Forall_forall. intros sm Hin. apply in_map_iff in Hin. destruct Hin as (a & <- & _). repeat constructor.
  - arm H. match goal with Hd : dispatch _ _ _ _ _ _ = Ok _ |- _ => apply dispatch_dispatched in Hd end.
    destruct m; [unfold fp_update_owner in Hx|unfold fp_add_token in Hx|unfold fp_remove_token in Hx|unfold fp_send_token in Hx];
      arm Hx; try (do 3 eexists; split; [|eassumption]; repeat constructor; fail).
    match goal with Hd : dispatched _ ?W _ _ _ _ _ |- _ => exists (w_fp W); do 2 eexists; split; [|destruct W; eassumption] end.
    repeat constructor.
  - destruct m; arm H; eauto.
  - arm H. eauto.
Qed.

Lemma exec_other_eng f w o w' :
  exec_op f w o = Ok w' -> (forall s m fu, o <> OEngine s m fu) -> w_eng w' = w_eng w.
Proof.
  intros H Hne. apply exec_op_cases in H.
  assert (Hsil : forall w1 n c subs n', w_eng w1 = w_eng w -> dispatched f w1 n c subs w' n' -> Forall silent subs ->
                   w_eng w' = w_eng w).
  { intros w1 n c subs n' E Hd Hq. revert Hd Hq E. apply (dispatched_quiet silent_msg (fun x => w_eng x = w_eng w)); [exact (fun _ _ => I)|].
    intros w2 c2 m w3 ev _ Hx E2. rewrite (exec_simple_eng _ _ _ _ _ Hx). exact E2. }
  destruct o; [subst; reflexivity|exfalso; eapply Hne; reflexivity|destruct H as (vm & vm' & _ & ->); reflexivity| |
              |destruct H as [fd ->]; reflexivity|destruct H as [t ->]; reflexivity];
    destruct H as (i & subs & n & Hq & Hd); (eapply Hsil; [|exact Hd|exact Hq]); reflexivity.
Qed.

Lemma exec_other_if f w o w' : exec_op f w o = Ok w' -> (forall s m, o <> OIfund s m) -> w_if w' = w_if w.
Proof.
  intros H Hne. apply exec_op_cases in H. destruct o.
  - subst. reflexivity.
  - destruct H as (tk & w1 & subs & n & Ee & Hd).
    destruct (engine_execute_eng _ _ _ _ _ _ Ee) as (e' & -> & _). exact (dispatched_if _ _ _ _ _ _ _ Hd).
  - destruct H as (vm & vm' & _ & ->). reflexivity.
  - exfalso. eapply Hne. reflexivity.
  - destruct H as (p & subs & n & _ & Hd). exact (dispatched_if _ _ _ _ _ _ _ Hd).
  - destruct H as [fd ->]. reflexivity.
  - destruct H as [t ->]. reflexivity.
Qed.

(* the execute arm runs on the world with some ledger in place of the caller's: refused on every ledger, the call fails *)
Lemma engine_refusal_is_failed_tx f w s m funds :
  (forall tk r, engine_execute (set_tok w tk) s m funds <> Ok r) ->
  step_f f w (OEngine s m funds) = (w, false).
Proof.
  intros Hr. unfold step_f. destruct (exec_op f w (OEngine s m funds)) as [w'|] eqn:E; [|reflexivity].
  apply exec_engine_tok in E. destruct E as (tk & w1 & subs & n & He & _). destruct (Hr _ _ He).
Qed.
